(* The specification decoder of Spec/ChunkSpec.v: the association lists that hold its chunk streams, what dec_chunk
   accepts and returns, and its byte front end: parsing the encoding of a legal chunk record gives the record back. *)
From Coq Require Import ZArith Lia ZifyN ZifyBool ZifyNat.
From RML Require Import Model.Base Model.Chunk Spec.ChunkSpec Proofs.BaseProofs.
Local Open Scope N_scope.

Lemma lookup_remove_same {A} k (m : list (N * A)) : lookup k (remove k m) = None.
Proof.
  induction m as [|[k' v] r IH]; [reflexivity|]. cbn [remove].
  destruct (k =? k') eqn:E; [exact IH|]. cbn [lookup]. rewrite E. exact IH.
Qed.

Lemma lookup_remove_other {A} k k' (m : list (N * A)) : k' <> k -> lookup k' (remove k m) = lookup k' m.
Proof.
  intros Hne. induction m as [|[k2 v] r IH]; [reflexivity|]. cbn [remove lookup].
  destruct (k =? k2) eqn:E.
  - apply N.eqb_eq in E. subst k2. destruct (k' =? k) eqn:E2; [apply N.eqb_eq in E2; contradiction|]. exact IH.
  - cbn [lookup]. destruct (k' =? k2); [reflexivity|exact IH].
Qed.

Lemma lookup_insert_same {A} k (v : A) m : lookup k (insert k v m) = Some v.
Proof. unfold insert. cbn [lookup]. rewrite N.eqb_refl. reflexivity. Qed.

Lemma lookup_insert_other {A} k k' (v : A) m : k' <> k -> lookup k' (insert k v m) = lookup k' m.
Proof.
  intros Hne. unfold insert. cbn [lookup]. destruct (k' =? k) eqn:E; [apply N.eqb_eq in E; contradiction|].
  apply lookup_remove_other. exact Hne.
Qed.

Definition with_partial (s : cstream) (d : bytes) : cstream :=
  {| cs_ts := cs_ts s; cs_field := cs_field s; cs_len := cs_len s; cs_tid := cs_tid s; cs_sid := cs_sid s; cs_partial := d |}.

(* s is the header in force: the chunk stream then holds it and the payload received so far, none once the message is complete *)
Lemma dec_chunk_spec st c st' om : dec_chunk st c = Some (st', om) <->
  exists s, chunk_wf c = true /\ header_after (lookup (c_csid c) (sd_cs st)) c = Some s /\
    lenN (cs_partial s) <= cs_len s /\ lenN (c_payload c) = expected_payload (sd_max st) s /\
    let data := cs_partial s ++ c_payload c in
    let complete := lenN data =? cs_len s in
    st' = {| sd_max := sd_max st; sd_cs := insert (c_csid c) (with_partial s (if complete then [] else data)) (sd_cs st) |} /\
    om = if complete then Some {| m_ts := cs_ts s; m_tid := cs_tid s; m_sid := cs_sid s; m_data := data |} else None.
Proof.
  unfold dec_chunk. split.
  - destruct (chunk_wf c); [|discriminate]. cbn [negb].
    destruct (header_after (lookup (c_csid c) (sd_cs st)) c) as [s|]; [|discriminate].
    destruct (lenN (cs_partial s) <=? cs_len s) eqn:E1; [|discriminate].
    destruct (lenN (c_payload c) =? expected_payload (sd_max st) s) eqn:E2; [|discriminate].
    intros H. exists s. repeat (split; [reflexivity || lia|]). cbv zeta.
    destruct (lenN (cs_partial s ++ c_payload c) =? cs_len s); injection H as <- <-; split; reflexivity.
  - intros [s [-> [-> [H1 [H2 [-> ->]]]]]]. cbn [negb]. replace (lenN (cs_partial s) <=? cs_len s) with true by lia.
    rewrite H2, N.eqb_refl. destruct (lenN (cs_partial s ++ c_payload c) =? cs_len s); reflexivity.
Qed.

Definition fixed_bytes (c : chunk) : bytes :=
  let ts24 := be24 (N.min (c_field c) 16777215) in
  if c_fmt c =? 0 then ts24 ++ be24 (c_len c) ++ [c_tid c] ++ le32 (c_sid c)
  else if c_fmt c =? 1 then ts24 ++ be24 (c_len c) ++ [c_tid c]
  else if c_fmt c =? 2 then ts24
  else [].

Definition ext_bytes (c : chunk) : bytes := if 16777215 <=? c_field c then be32 (c_field c) else [].

Lemma emit_chunk_eq c :
  emit_chunk c = basic_header_bytes (c_fmt c) (c_csid c) (c_form c) ++ fixed_bytes c ++ ext_bytes c ++ c_payload c.
Proof. reflexivity. Qed.

Lemma parse_basic_emit fmt csid form rest :
  fmt <= 3 -> form_ok csid form = true ->
  parse_basic (basic_header_bytes fmt csid form ++ rest) = Some (fmt, csid, form, rest).
Proof.
  intros Hf Hform. unfold form_ok in Hform. unfold basic_header_bytes, parse_basic.
  destruct (form =? 1) eqn:E1.
  - assert (form = 1) by lia. subst form. cbn [app].
    assert (Hc : 2 <= csid <= 63) by lia.
    replace ((fmt * 64 + csid) mod 64) with csid by lia.
    replace ((fmt * 64 + csid) / 64) with fmt by lia.
    destruct (csid =? 0) eqn:E2; [lia|]. destruct (csid =? 1) eqn:E3; [lia|]. reflexivity.
  - destruct (form =? 2) eqn:E2.
    + assert (form = 2) by lia. subst form. cbn [app].
      assert (Hc : 64 <= csid <= 319) by lia.
      replace ((fmt * 64) mod 64) with 0 by lia. replace ((fmt * 64) / 64) with fmt by lia.
      change (0 =? 0) with true. cbv iota. replace (csid - 64 + 64) with csid by lia. reflexivity.
    + assert (form = 3) by lia. subst form. cbn [app].
      assert (Hc : 64 <= csid <= 65599) by lia.
      replace ((fmt * 64 + 1) mod 64) with 1 by lia. replace ((fmt * 64 + 1) / 64) with fmt by lia.
      change (1 =? 0) with false. change (1 =? 1) with true. cbv iota.
      replace ((csid - 64) / 256 * 256 + (csid - 64) mod 256 + 64) with csid by lia. reflexivity.
Qed.

(* what chunk_wf says: the ranges of the fields, and the normal form (fields a format omits are 0) *)
Definition wf_facts (c : chunk) : Prop :=
  c_fmt c <= 3 /\ form_ok (c_csid c) (c_form c) = true /\ c_field c < 4294967296 /\ c_len c < 16777216 /\
  c_tid c < 256 /\ c_sid c < 4294967296.

Definition chunk_nf (c : chunk) : Prop :=
  (c_fmt c >= 2 -> c_len c = 0 /\ c_tid c = 0) /\ (c_fmt c >= 1 -> c_sid c = 0).

Lemma chunk_wf_inv c : chunk_wf c = true -> wf_facts c /\ chunk_nf c.
Proof.
  unfold chunk_wf, wf_facts, chunk_nf. intros H.
  repeat (apply andb_prop in H; let H2 := fresh "H" in destruct H as [H H2]).
  split; [repeat split; try lia; assumption|]. split; intros Hf.
  - replace (2 <=? c_fmt c) with true in * by lia. lia.
  - replace (1 <=? c_fmt c) with true in * by lia. lia.
Qed.

Lemma fixed_decode c :
  wf_facts c -> chunk_nf c ->
  let fixed := fixed_bytes c in
  lenN fixed = (if c_fmt c =? 0 then 11 else if c_fmt c =? 1 then 7 else if c_fmt c =? 2 then 3 else 0) /\
  (c_fmt c <= 2 -> of_be (fst (split_at 3 fixed)) = N.min (c_field c) 16777215) /\
  (if c_fmt c <=? 1 then of_be (fst (split_at 3 (drop_n 3 fixed))) else 0) = c_len c /\
  (if c_fmt c <=? 1 then of_be (fst (split_at 1 (drop_n 6 fixed))) else 0) = c_tid c /\
  (if c_fmt c =? 0 then of_le (drop_n 7 fixed) else 0) = c_sid c.
Proof.
  intros [Hfmt [_ [Hfield [Hlen [Htid Hsid]]]]] [Hnf1 Hnf2].
  assert (Ht : N.min (c_field c) 16777215 < 16777216) by lia.
  assert (Hc : c_fmt c = 0 \/ c_fmt c = 1 \/ c_fmt c = 2 \/ c_fmt c = 3) by lia.
  unfold fixed_bytes.
  (* with the format known the offsets are literal, and reading a field back computes down to of_be (be24 _) *)
  destruct Hc as [Hc|[Hc|[Hc|Hc]]]; rewrite Hc in *; cbv beta iota zeta delta [N.eqb Pos.eqb N.leb N.compare Pos.compare Pos.compare_cont].
  - split; [reflexivity|]. split; [intros _; exact (of_be_be24 _ Ht)|]. split; [exact (of_be_be24 _ Hlen)|].
    split; [reflexivity|exact (of_le_le32 _ Hsid)].
  - split; [reflexivity|]. split; [intros _; exact (of_be_be24 _ Ht)|]. split; [exact (of_be_be24 _ Hlen)|].
    split; [reflexivity|]. symmetry. apply Hnf2. lia.
  - destruct (Hnf1 ltac:(lia)) as [-> ->]. split; [reflexivity|]. split; [intros _; exact (of_be_be24 _ Ht)|].
    split; [reflexivity|]. split; [reflexivity|]. symmetry. apply Hnf2. lia.
  - destruct (Hnf1 ltac:(lia)) as [-> ->]. split; [reflexivity|]. split; [lia|].
    split; [reflexivity|]. split; [reflexivity|]. symmetry. apply Hnf2. lia.
Qed.

(* a format 3 chunk repeats the chunk stream's timestamp field; between messages it starts a message with the same delta *)
Lemma header_after_fmt3 os c s1 : c_fmt c = 3 -> header_after os c = Some s1 ->
  exists s, os = Some s /\ N.min (c_field c) 16777215 = N.min (cs_field s) 16777215 /\
    if in_message s then s1 = s
    else c_field c = cs_field s /\
         s1 = {| cs_ts := tadd (cs_ts s) (cs_field s); cs_field := cs_field s; cs_len := cs_len s; cs_tid := cs_tid s;
                 cs_sid := cs_sid s; cs_partial := [] |}.
Proof.
  intros Hf H. unfold header_after in H. rewrite Hf in H. destruct os as [s|]; [|discriminate]. exists s. split; [reflexivity|].
  cbn [N.eqb Pos.eqb] in H. destruct (in_message s).
  - destruct (_ || _) eqn:E; [|discriminate]. injection H as <-. split; [lia|reflexivity].
  - destruct (c_field c =? cs_field s) eqn:E; [|discriminate]. injection H as <-. split; [lia|]. split; [lia|reflexivity].
Qed.

Lemma parse_emit st c rest s :
  chunk_wf c = true ->
  header_after (lookup (c_csid c) (sd_cs st)) c = Some s ->
  lenN (c_payload c) = expected_payload (sd_max st) s ->
  parse_chunk st (emit_chunk c ++ rest) = PChunk c rest.
Proof.
  intros Hwf Hh Hp. destruct (chunk_wf_inv c Hwf) as [Hfacts Hnf].
  pose proof (fixed_decode c Hfacts Hnf) as Hfx. cbv zeta in Hfx. destruct Hfx as [Hl [Hts [Hlen [Htid Hsid]]]].
  destruct Hfacts as [Hfmt [Hform [Hfield _]]].
  unfold parse_chunk. rewrite emit_chunk_eq, <- app_assoc, parse_basic_emit by assumption.
  rewrite <- app_assoc, (take_n_app_len (fixed_bytes c)) by (symmetry; exact Hl).
  set (prev := lookup (c_csid c) (sd_cs st)) in *.
  set (has_ext := if c_fmt c =? 3 then match prev with Some s0 => 16777215 <=? cs_field s0 | None => false end
                  else of_be (fst (split_at 3 (fixed_bytes c))) =? 16777215).
  assert (Hext : has_ext = (16777215 <=? c_field c) /\
                 (has_ext = false -> (if c_fmt c =? 3 then match prev with Some s0 => cs_field s0 | None => 0 end
                                      else of_be (fst (split_at 3 (fixed_bytes c)))) = c_field c)).
  { unfold has_ext. destruct (c_fmt c =? 3) eqn:E3.
    - apply N.eqb_eq in E3. destruct (header_after_fmt3 prev c s E3 Hh) as [s0 [Hp0 [Hm _]]].
      (* the same 3-byte part: both fields have an extended part or neither has, and then they are equal *)
      rewrite Hp0. clear - Hm. split; [lia|]. intros Hf. lia.
    - rewrite Hts by lia. clear. split; [lia|]. intros Hf. lia. }
  destruct Hext as [He1 He2].
  unfold ext_bytes. rewrite <- He1.
  destruct has_ext eqn:Eh;
    [rewrite <- app_assoc, (take_n_app_len (be32 (c_field c))) by reflexivity; rewrite (of_be_be32 _ Hfield)|cbn [app]; rewrite (He2 eq_refl)].
  all: rewrite Hlen, Htid, Hsid; change (header_after prev _) with (header_after prev c); rewrite Hh, (take_n_app_len (c_payload c)) by (symmetry; exact Hp).
  all: destruct c; reflexivity.
Qed.
