(* C16: chunk streams are independent.  For any interleaving of the chunks of several chunk streams, what is
   decoded on each chunk stream id is what that stream's chunks decode to on their own; the interleaved stream is
   accepted whenever each stream on its own is; and messages come out when their last chunk arrives. *)
From Coq Require Import ZArith Lia ZifyN ZifyBool ZifyNat.
From RML Require Import Model.Base Model.Chunk Spec.ChunkSpec Proofs.ChunkSpecProofs.
Local Open Scope N_scope.

(* decoding with a fixed chunk size: the per-chunk outputs *)
Fixpoint run_nc (st : sdec_state) (L : list chunk) : option (sdec_state * list (option msg)) :=
  match L with
  | [] => Some (st, [])
  | c :: r =>
    match dec_chunk st c with
    | None => None
    | Some (st1, om) => match run_nc st1 r with Some (st2, os) => Some (st2, om :: os) | None => None end
    end
  end.

(* the chunks of chunk stream k, in order; and the outputs at their positions *)
Fixpoint proj (k : N) (L : list chunk) : list chunk :=
  match L with [] => [] | c :: r => if c_csid c =? k then c :: proj k r else proj k r end.
Fixpoint pick {A} (k : N) (L : list chunk) (os : list A) : list A :=
  match L, os with
  | c :: r, o :: os' => if c_csid c =? k then o :: pick k r os' else pick k r os'
  | _, _ => []
  end.

Definition agree_at (k : N) (a b : sdec_state) : Prop := sd_max a = sd_max b /\ lookup k (sd_cs a) = lookup k (sd_cs b).

Lemma dec_chunk_local a b c a1 om : agree_at (c_csid c) a b -> dec_chunk a c = Some (a1, om) ->
  exists b1, dec_chunk b c = Some (b1, om) /\ agree_at (c_csid c) a1 b1 /\ sd_max a1 = sd_max a /\
             forall k, k <> c_csid c -> lookup k (sd_cs a1) = lookup k (sd_cs a).
Proof.
  intros [Hm Hl] H. apply dec_chunk_spec in H. destruct H as [s [Hwf [Hh [Hle [Hp [-> ->]]]]]]. cbv zeta.
  eexists. split; [apply dec_chunk_spec; exists s; rewrite <- Hl, <- Hm; repeat split; assumption|]. cbn [sd_max sd_cs].
  split; [split; [reflexivity|cbn [sd_cs]; rewrite !lookup_insert_same; reflexivity]|].
  split; [reflexivity|]. intros k Hk. apply lookup_insert_other. exact Hk.
Qed.

Lemma proj_all k L : Forall (fun c => c_csid c = k) (proj k L).
Proof.
  induction L as [|c r IH]; cbn [proj]; [constructor|]. destruct (c_csid c =? k) eqn:E; [|exact IH].
  constructor; [lia|exact IH].
Qed.

Lemma run_nc_local k M : Forall (fun c => c_csid c = k) M -> forall a b a1 os, agree_at k a b ->
  run_nc a M = Some (a1, os) -> exists b1, run_nc b M = Some (b1, os) /\ agree_at k a1 b1.
Proof.
  induction 1 as [|c r Hc _ IH]; intros a b a1 os Hab Hr; cbn [run_nc] in *.
  - injection Hr as <- <-. exists b. split; [reflexivity|exact Hab].
  - subst k. destruct (dec_chunk a c) as [[a' om]|] eqn:Ed; [|discriminate].
    destruct (dec_chunk_local a b c a' om Hab Ed) as [b' [-> [Hab' _]]].
    destruct (run_nc a' r) as [[a2 os2]|] eqn:Er; [|discriminate]. injection Hr as <- <-.
    destruct (IH a' b' a2 os2 Hab' Er) as [b2 [-> Hab2]]. exists b2. split; [reflexivity|exact Hab2].
Qed.

Theorem interleave_local L : forall st,
  (forall k, run_nc st (proj k L) <> None) ->
  exists st' os, run_nc st L = Some (st', os) /\ length os = length L /\
    forall k, exists stk, run_nc st (proj k L) = Some (stk, pick k L os) /\ agree_at k stk st'.
Proof.
  induction L as [|c r IH]; intros st Hall.
  - exists st, []. split; [reflexivity|]. split; [reflexivity|]. intros k. exists st. split; [reflexivity|split; reflexivity].
  - pose proof (Hall (c_csid c)) as H0. cbn [proj] in H0. rewrite N.eqb_refl in H0. cbn [run_nc] in H0.
    destruct (dec_chunk st c) as [[st1 om]|] eqn:Hd; [|contradiction].
    (* the runs on the other chunk streams do not see this chunk *)
    destruct (dec_chunk_local st st c st1 om (conj eq_refl eq_refl) Hd) as [_ [_ [_ [Hmax Hoth]]]].
    assert (Hall1 : forall k, run_nc st1 (proj k r) <> None).
    { intros k. destruct (N.eq_dec k (c_csid c)) as [-> | Hk].
      - destruct (run_nc st1 (proj (c_csid c) r)); [discriminate|contradiction].
      - pose proof (Hall k) as Hk1. cbn [proj] in Hk1. replace (c_csid c =? k) with false in Hk1 by lia.
        destruct (run_nc st (proj k r)) as [[x1 x2]|] eqn:E; [|contradiction].
        destruct (run_nc_local k _ (proj_all k r) st st1 x1 x2 (conj (eq_sym Hmax) (eq_sym (Hoth k Hk))) E) as [b1 [-> _]]. discriminate. }
    destruct (IH st1 Hall1) as [st' [os [Hrun [Hlen Hk]]]].
    exists st', (om :: os). cbn [run_nc]. rewrite Hd, Hrun. split; [reflexivity|]. split; [cbn [length]; lia|].
    intros k. destruct (Hk k) as [stk [Hk1 [K1 K2]]]. cbn [proj pick]. destruct (c_csid c =? k) eqn:E.
    + assert (k = c_csid c) by lia. subst k. cbn [run_nc]. rewrite Hd, Hk1. exists stk. split; [reflexivity|split; assumption].
    + assert (Hne : k <> c_csid c) by lia.
      destruct (run_nc_local k _ (proj_all k r) st1 st _ _ (conj Hmax (Hoth k Hne)) Hk1) as [y1 [-> [A1 A2]]].
      exists y1. split; [reflexivity|]. split; [rewrite <- A1; exact K1|rewrite <- A2; exact K2].
Qed.

(* with no Set Chunk Size message among the completed ones, the full decoder is run_nc *)
Fixpoint somes {A} (l : list (option A)) : list A :=
  match l with [] => [] | Some x :: r => x :: somes r | None :: r => somes r end.

Lemma run_nc_sdec_run L : forall st st' os,
  run_nc st L = Some (st', os) -> Forall (fun m => m_tid m <> 1) (somes os) -> sdec_run st L = Some (st', somes os).
Proof.
  induction L as [|c r IH]; intros st st' os Hr Hn; cbn [run_nc sdec_run] in *.
  - injection Hr as <- <-. reflexivity.
  - destruct (dec_chunk st c) as [[st1 om]|]; [|discriminate].
    destruct (run_nc st1 r) as [[st2 os2]|] eqn:E; [|discriminate]. injection Hr as <- <-.
    destruct om as [m|]; cbn [somes] in *.
    + inversion Hn as [|? ? Hm Hrest]; subst. unfold apply_control. replace (m_tid m =? 1) with false by lia.
      rewrite (IH st1 st2 os2 E Hrest). reflexivity.
    + apply (IH st1 st2 os2 E Hn).
Qed.
