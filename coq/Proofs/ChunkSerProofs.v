(* T1: the independent spec decoder reads the serializer's output - with any subset of the droppable
   packets removed - as exactly the messages of the surviving packets.  (C07, C08, spec side of C01/C18)
   Serializer and decoder states are related by Sim between messages and by Mid inside one. *)
From Coq Require Import ZArith Lia ZifyN ZifyBool ZifyNat.
From RML Require Import Model.Base Model.Time Model.Chunk Model.ChunkSer Gen.Consts Spec.ChunkSpec
  Proofs.BaseProofs Proofs.ChunkSpecProofs.
Local Open Scope N_scope.

Lemma lookup_in {A} k (m : list (N * A)) v : lookup k m = Some v -> exists k', In (k', v) m.
Proof.
  induction m as [|[k2 v2] r IH]; [discriminate|]. cbn [lookup]. destruct (k =? k2).
  - intros H; inversion H; subst. exists k2. left. reflexivity.
  - intros H. destruct (IH H) as [k' Hin]. exists k'. right. exact Hin.
Qed.

Lemma csid_range tid : 2 <= get_csid_for_message_type tid <= 63.
Proof.
  unfold get_csid_for_message_type.
  assert (Ht : forallb (fun p => (2 <=? snd p) && (snd p <=? 63)) csid_table = true) by reflexivity.
  destruct (lookup tid csid_table) as [c|] eqn:E.
  - destruct (lookup_in _ _ _ E) as [k' Hin]. rewrite forallb_forall in Ht. specialize (Ht _ Hin). cbn [snd] in Ht. lia.
  - unfold csid_default. lia.
Qed.

Definition chunk_of (f : fmt) (csid : N) (h : shdr) (data : bytes) : chunk :=
  {| c_fmt := fmt_num f; c_csid := csid; c_form := 1; c_field := s_field h;
     c_len := match f with Full | NoSid => s_len h | _ => 0 end;
     c_tid := match f with Full | NoSid => s_tid h | _ => 0 end;
     c_sid := match f with Full => s_sid h | _ => 0 end;
     c_payload := data |}.

Lemma add_chunk_emit st force m cont data drop :
  add_chunk st force m cont data drop =
  let csid := get_csid_for_message_type (m_tid m) in
  let '(f, h) := decide_header st force m cont drop in
  Ok (emit_chunk (chunk_of f csid h data), {| s_prev := insert csid h (s_prev st); s_max := s_max st |}).
Proof.
  unfold add_chunk. cbv zeta. destruct (decide_header st force m cont drop) as [f h].
  pose proof (csid_range (m_tid m)) as Hc. set (csid := get_csid_for_message_type (m_tid m)) in *.
  unfold basic_header.
  replace ((csid <=? 1) || (65600 <=? csid)) with false by lia.
  replace (csid <=? 63) with true by lia.
  f_equal. f_equal.
  unfold emit_chunk, chunk_of, basic_header_bytes, initial_timestamp, length_and_type, stream_id_bytes, extended_timestamp,
    SER_MAX_INITIAL_TIMESTAMP.
  cbn [c_fmt c_csid c_form c_field c_len c_tid c_sid c_payload].
  change (1 =? 1) with true. cbv iota.
  destruct (s_field h <? 16777215) eqn:E; [replace (16777215 <=? s_field h) with false by lia|replace (16777215 <=? s_field h) with true by lia];
    destruct f; cbn [fmt_num N.eqb Pos.eqb app]; rewrite <- ?app_assoc; reflexivity.
Qed.

Definition hdr_wf (p : shdr) : Prop :=
  s_ts p < 4294967296 /\ s_field p < 4294967296 /\ s_len p < 16777216 /\ s_tid p < 256 /\ s_sid p < 4294967296.

Definition agree (p : shdr) (s : cstream) : Prop :=
  cs_ts s = s_ts p /\ cs_field s = s_field p /\ cs_len s = s_len p /\ cs_tid s = s_tid p /\ cs_sid s = s_sid p.

(* one chunk stream id: the decoder is between messages; a remembered header that the peer certainly saw
   (not droppable) is the header the decoder holds *)
Definition sim1 (sp : option shdr) (ds : option cstream) : Prop :=
  (forall s, ds = Some s -> cs_partial s = []) /\
  (forall p, sp = Some p -> hdr_wf p /\ (s_drop p = false -> exists s, ds = Some s /\ agree p s)).

Definition Sim (sst : sstate) (dst : sdec_state) : Prop :=
  sd_max dst = s_max sst /\ 1 <= s_max sst <= 2147483647 /\
  forall c, sim1 (lookup c (s_prev sst)) (lookup c (sd_cs dst)).

Definition msg_wf (m : msg) : Prop :=
  m_ts m < 4294967296 /\ m_tid m < 256 /\ m_sid m < 4294967296 /\ lenN (m_data m) <= 16777215.

(* the decoder is reassembling m on its chunk stream, [done] received so far *)
Definition Mid (sst : sstate) (dst : sdec_state) (m : msg) (drop : bool) (done : bytes) : Prop :=
  let csid := get_csid_for_message_type (m_tid m) in
  sd_max dst = s_max sst /\ 1 <= s_max sst <= 2147483647 /\
  (forall c, c <> csid -> sim1 (lookup c (s_prev sst)) (lookup c (sd_cs dst))) /\
  exists p s, lookup csid (s_prev sst) = Some p /\ lookup csid (sd_cs dst) = Some s /\ agree p s /\ hdr_wf p /\
    cs_partial s = done /\ done <> [] /\
    s_ts p = m_ts m /\ s_len p = lenN (m_data m) /\ s_tid p = m_tid m /\ s_sid p = m_sid m /\ s_drop p = drop.

Lemma forallb_app_l {A} (f : A -> bool) a b : forallb f (a ++ b) = true -> forallb f a = true.
Proof. rewrite forallb_app. intros H. apply andb_prop in H. tauto. Qed.
Lemma forallb_app_r {A} (f : A -> bool) a b : forallb f (a ++ b) = true -> forallb f b = true.
Proof. rewrite forallb_app. intros H. apply andb_prop in H. tauto. Qed.

Lemma tadd_sub a b : a < 4294967296 -> b < 4294967296 -> tadd b (sub_values a b) = a.
Proof. unfold tadd, sub_values, two32. intros. lia. Qed.

Lemma sub_values_lt a b : sub_values a b < 4294967296.
Proof. unfold sub_values, two32. lia. Qed.

Lemma chunk_of_wf f csid h data :
  2 <= csid <= 63 -> hdr_wf h -> chunk_wf (chunk_of f csid h data) = true.
Proof.
  intros Hc [H1 [H2 [H3 [H4 H5]]]]. unfold chunk_wf, chunk_of, form_ok.
  cbn [c_fmt c_csid c_form c_field c_len c_tid c_sid c_payload].
  destruct f; cbn [fmt_num];
    [change (2 <=? 0) with false; change (1 <=? 0) with false
    |change (2 <=? 1) with false; change (1 <=? 1) with true
    |change (2 <=? 2) with true; change (1 <=? 2) with true
    |change (2 <=? 3) with true; change (1 <=? 3) with true]; cbv iota; lia.
Qed.

Definition msg_hdr (m : msg) (drop : bool) (fld : N) : shdr :=
  {| s_ts := m_ts m; s_field := fld; s_len := lenN (m_data m); s_tid := m_tid m; s_sid := m_sid m; s_drop := drop |}.

Definition carries (h : shdr) (m : msg) (drop : bool) : Prop :=
  s_ts h = m_ts m /\ s_len h = lenN (m_data m) /\ s_tid h = m_tid m /\ s_sid h = m_sid m /\ s_drop h = drop.

Lemma msg_hdr_carries m drop fld : carries (msg_hdr m drop fld) m drop.
Proof. repeat split. Qed.

Lemma msg_hdr_wf m drop fld : msg_wf m -> fld < 4294967296 -> hdr_wf (msg_hdr m drop fld).
Proof. intros [Hts [Htid [Hsid Hlen]]] Hf. unfold hdr_wf, msg_hdr. cbn. lia. Qed.

Lemma decide_header_cases st force m continued drop :
  decide_header st force m continued drop =
  match (if force then None else lookup (get_csid_for_message_type (m_tid m)) (s_prev st)) with
  | None => (Full, msg_hdr m drop (m_ts m))
  | Some p =>
    if continued then (Empty, msg_hdr m drop (s_field p))
    else if s_drop p then (Full, msg_hdr m drop (m_ts m))
    else let d := sub_values (m_ts m) (s_ts p) in
         let f := get_header_format (msg_hdr m drop d) p in
         (f, msg_hdr m drop (match f with Full => m_ts m | _ => d end))
  end.
Proof.
  unfold decide_header. destruct force; [reflexivity|].
  destruct (lookup _ (s_prev st)) as [p|]; [|reflexivity]. destruct continued; [reflexivity|].
  destruct (s_drop p); [reflexivity|]. cbv zeta. fold (msg_hdr m drop 0).
  change (with_field (msg_hdr m drop 0) (sub_values (m_ts m) (s_ts p))) with (msg_hdr m drop (sub_values (m_ts m) (s_ts p))).
  destruct (get_header_format _ p); reflexivity.
Qed.

(* The header h that the serializer writes in format f is synced when the decoder, [done] bytes into message m (none
   between messages), reads it back as the same header. *)
Definition synced (dst : sdec_state) (m : msg) (drop : bool) (done : bytes) (f : fmt) (h : shdr) (data : bytes) : Prop :=
  let csid := get_csid_for_message_type (m_tid m) in
  hdr_wf h /\ carries h m drop /\
  exists s, header_after (lookup csid (sd_cs dst)) (chunk_of f csid h data) = Some s /\ agree h s /\ cs_partial s = done.

Lemma full_header_synced dst m drop data :
  msg_wf m -> (forall s, lookup (get_csid_for_message_type (m_tid m)) (sd_cs dst) = Some s -> cs_partial s = []) ->
  synced dst m drop [] Full (msg_hdr m drop (m_ts m)) data.
Proof.
  intros Hwf Hds. pose proof Hwf as [Hts _]. split; [apply msg_hdr_wf; assumption|]. split; [apply msg_hdr_carries|].
  unfold header_after, chunk_of. cbn [c_fmt c_field c_len c_tid c_sid fmt_num].
  destruct (lookup _ (sd_cs dst)) as [s0|]; [unfold in_message; rewrite (Hds s0 eq_refl)|];
    (eexists; split; [reflexivity|]; split; [repeat split|reflexivity]).
Qed.

Lemma delta_header_read s0 p m drop csid data :
  msg_wf m -> hdr_wf p -> agree p s0 -> cs_partial s0 = [] ->
  let d := sub_values (m_ts m) (s_ts p) in
  let f := get_header_format (msg_hdr m drop d) p in
  let h := msg_hdr m drop (match f with Full => m_ts m | _ => d end) in
  exists s, header_after (Some s0) (chunk_of f csid h data) = Some s /\ agree h s /\ cs_partial s = [].
Proof.
  intros [Hts _] [W1 [W2 _]] [A1 [A2 [A3 [A4 A5]]]] Hp0 d f h.
  assert (Hts' : tadd (cs_ts s0) d = m_ts m) by (rewrite A1; apply tadd_sub; assumption).
  unfold header_after, in_message. rewrite Hp0. subst h f. unfold get_header_format. cbn [s_sid s_tid s_len s_field msg_hdr].
  destruct (negb (m_sid m =? s_sid p)) eqn:E1; [|destruct (negb (m_tid m =? s_tid p) || negb (lenN (m_data m) =? s_len p)) eqn:E2;
    [|destruct (negb (d =? s_field p)) eqn:E3]]; unfold chunk_of; cbn [c_fmt c_field c_len c_tid c_sid fmt_num s_field msg_hdr].
  - eexists. split; [reflexivity|]. split; [repeat split|reflexivity].
  - eexists. split; [reflexivity|]. split; [|reflexivity]. unfold agree. cbn. rewrite Hts'. repeat split. lia.
  - eexists. split; [reflexivity|]. split; [|reflexivity]. unfold agree. cbn. rewrite Hts'. repeat split; lia.
  - replace (d =? cs_field s0) with true by lia.
    eexists. split; [reflexivity|]. split; [|reflexivity]. unfold agree. cbn.
    replace (cs_field s0) with d by lia. rewrite Hts'. repeat split; lia.
Qed.

Lemma first_synced sst dst m force drop f h data :
  Sim sst dst -> msg_wf m -> decide_header sst force m false drop = (f, h) -> synced dst m drop [] f h data.
Proof.
  intros [_ [_ Hsim]] Hwf Hdec. rewrite decide_header_cases in Hdec.
  destruct (Hsim (get_csid_for_message_type (m_tid m))) as [Hnomsg Hprev].
  pose proof (full_header_synced dst m drop data Hwf Hnomsg) as Hfull.
  destruct force; [injection Hdec as <- <-; exact Hfull|].
  destruct (lookup _ (s_prev sst)) as [p|]; [|injection Hdec as <- <-; exact Hfull].
  destruct (Hprev p eq_refl) as [Hpw Hpa]. destruct (s_drop p); [injection Hdec as <- <-; exact Hfull|].
  destruct (Hpa eq_refl) as [s0 [Hs0 Hag]]. cbv zeta in Hdec. injection Hdec as <- <-.
  split; [|split; [apply msg_hdr_carries|]].
  - apply msg_hdr_wf; [exact Hwf|]. destruct Hwf as [Hts _]. pose proof (sub_values_lt (m_ts m) (s_ts p)).
    destruct (get_header_format _ p); assumption.
  - rewrite Hs0. apply (delta_header_read s0 p m drop _ data Hwf Hpw Hag (Hnomsg s0 Hs0)).
Qed.

(* inside a message a forced format 0 header restates the header of the message; format 3 repeats its timestamp field *)
Lemma cont_synced sst dst m force drop done f h data :
  Mid sst dst m drop done -> msg_wf m -> decide_header sst force m true drop = (f, h) -> synced dst m drop done f h data.
Proof.
  intros [_ [_ [_ [p [s [Hp [Hs [Hag [Hpw [Hpart [Hdone Hcar]]]]]]]]]]] Hwf Hdec.
  pose proof Hcar as [P1 [P2 [P3 [P4 _]]]]. pose proof Hag as [A1 [A2 [A3 [A4 A5]]]].
  pose proof Hpw as [W1 [W2 _]]. pose proof Hwf as [Hts _].
  assert (Hinmsg : in_message s = true) by (unfold in_message; rewrite Hpart; destruct done; [contradiction|reflexivity]).
  rewrite decide_header_cases, Hp in Hdec. unfold synced. rewrite Hs.
  unfold header_after. rewrite Hinmsg. unfold chunk_of. cbn [c_fmt c_field c_len c_tid c_sid fmt_num].
  destruct force; injection Hdec as <- <-; (split; [apply msg_hdr_wf; assumption|split; [apply msg_hdr_carries|]]);
    cbn [fmt_num msg_hdr s_field s_len s_tid s_sid s_ts].
  - change (0 =? 3) with false. change (0 =? 0) with true. cbv iota.
    replace ((m_ts m =? cs_ts s) && (lenN (m_data m) =? cs_len s) && (m_tid m =? cs_tid s) && (m_sid m =? cs_sid s)) with true by lia.
    eexists. split; [reflexivity|]. split; [|exact Hpart]. unfold agree; cbn. repeat split; congruence.
  - change (3 =? 3) with true. cbv iota.
    replace ((s_field p =? cs_field s) || (16777215 <=? s_field p) && (16777215 <=? cs_field s)) with true by lia.
    exists s. split; [reflexivity|]. split; [|exact Hpart]. unfold agree; cbn. repeat split; congruence.
Qed.

Lemma chunk_step sst dst m drop done slice rest_data f h :
  let csid := get_csid_for_message_type (m_tid m) in
  sd_max dst = s_max sst -> 1 <= s_max sst <= 2147483647 ->
  (forall c, c <> csid -> sim1 (lookup c (s_prev sst)) (lookup c (sd_cs dst))) ->
  m_data m = done ++ slice ++ rest_data -> lenN slice = N.min (lenN (m_data m) - lenN done) (s_max sst) ->
  synced dst m drop done f h slice ->
  let sst1 := {| s_prev := insert csid h (s_prev sst); s_max := s_max sst |} in
  exists dst1 om, dec_chunk dst (chunk_of f csid h slice) = Some (dst1, om) /\
    ((rest_data = [] /\ om = Some m /\ Sim sst1 dst1) \/
     (rest_data <> [] /\ om = None /\ Mid sst1 dst1 m drop (done ++ slice))).
Proof.
  intros csid Hmax Hrange Hother Hdata Hslice [Hhw [Hcar [s [Hha [Hag Hpart]]]]] sst1. fold csid in Hha.
  pose proof Hcar as [Ht [Hl [Hti [Hsi Hdr]]]]. pose proof Hag as [B1 [_ [B3 [B4 B5]]]].
  pose proof (csid_range (m_tid m)) as Hc. fold csid in Hc.
  assert (Hlen2 : lenN (m_data m) = lenN done + lenN slice + lenN rest_data) by (rewrite Hdata, !lenN_app; lia).
  eexists. eexists. split.
  { apply dec_chunk_spec. exists s. split; [apply chunk_of_wf; assumption|]. split; [exact Hha|]. split; [rewrite Hpart; lia|].
    split; [|split; reflexivity]. unfold expected_payload, chunk_of. cbn [c_payload]. rewrite Hpart, B3, Hl, Hmax. exact Hslice. }
  cbn [chunk_of c_payload c_csid]. rewrite Hpart, lenN_app.
  assert (Hag' : forall d, agree h (with_partial s d)) by (intros d; exact Hag).
  destruct rest_data as [|r0 rr].
  - rewrite !app_nil_r in Hdata. change (lenN (@nil N)) with 0 in Hlen2.
    replace (lenN done + lenN slice =? cs_len s) with true by lia.
    left. split; [reflexivity|]. split.
    + f_equal. rewrite B1, B4, B5, Ht, Hti, Hsi, <- Hdata. destruct m; reflexivity.
    + split; [exact Hmax|]. split; [exact Hrange|]. intros c. cbn [s_prev sd_cs sst1].
      destruct (N.eq_dec c csid) as [->|Hne]; [|rewrite !lookup_insert_other by assumption; apply Hother; exact Hne].
      rewrite !lookup_insert_same. split.
      * intros s1 Hs1. injection Hs1 as <-. reflexivity.
      * intros p Hp. injection Hp as <-. split; [exact Hhw|]. intros _. eexists. split; [reflexivity|apply Hag'].
  - rewrite lenN_cons in Hlen2.
    replace (lenN done + lenN slice =? cs_len s) with false by lia.
    right. split; [discriminate|]. split; [reflexivity|].
    split; [exact Hmax|]. split; [exact Hrange|]. fold csid. cbn [s_prev sd_cs sst1]. split.
    + intros c Hne. rewrite !lookup_insert_other by assumption. apply Hother. exact Hne.
    + exists h. eexists. rewrite !lookup_insert_same. split; [reflexivity|]. split; [reflexivity|].
      split; [apply Hag'|]. split; [exact Hhw|]. split; [reflexivity|]. split; [|exact Hcar].
      (* more follows, so the slice is a full chunk: something has been received *)
      intros E. apply app_eq_nil in E. destruct E as [-> ->]. change (lenN (@nil N)) with 0 in *. lia.
Qed.

Lemma first_chunk sst dst m force drop slice rest_data :
  Sim sst dst -> msg_wf m -> m_data m = slice ++ rest_data ->
  lenN slice = N.min (lenN (m_data m)) (s_max sst) ->
  let csid := get_csid_for_message_type (m_tid m) in
  forall f h, decide_header sst force m false drop = (f, h) ->
  let sst1 := {| s_prev := insert csid h (s_prev sst); s_max := s_max sst |} in
  exists dst1 om, dec_chunk dst (chunk_of f csid h slice) = Some (dst1, om) /\
    ((rest_data = [] /\ om = Some m /\ Sim sst1 dst1) \/
     (rest_data <> [] /\ om = None /\ Mid sst1 dst1 m drop slice)).
Proof.
  intros HSim Hwf Hdata Hslice csid f h Hdec. pose proof HSim as [Hmax [Hrange Hsim]].
  apply (chunk_step sst dst m drop [] slice rest_data f h Hmax Hrange (fun c _ => Hsim c) Hdata).
  - change (lenN (@nil N)) with 0. rewrite N.sub_0_r. exact Hslice.
  - apply (first_synced sst dst m force drop f h slice HSim Hwf Hdec).
Qed.

Lemma cont_chunk sst dst m force drop done slice rest_data :
  Mid sst dst m drop done -> msg_wf m -> m_data m = done ++ slice ++ rest_data ->
  lenN slice = N.min (lenN (m_data m) - lenN done) (s_max sst) -> slice <> [] ->
  let csid := get_csid_for_message_type (m_tid m) in
  forall f h, decide_header sst force m true drop = (f, h) ->
  let sst1 := {| s_prev := insert csid h (s_prev sst); s_max := s_max sst |} in
  exists dst1 om, dec_chunk dst (chunk_of f csid h slice) = Some (dst1, om) /\
    ((rest_data = [] /\ om = Some m /\ Sim sst1 dst1) \/
     (rest_data <> [] /\ om = None /\ Mid sst1 dst1 m drop (done ++ slice))).
Proof.
  intros HMid Hwf Hdata Hslice _ csid f h Hdec. pose proof HMid as [Hmax [Hrange [Hother _]]].
  apply (chunk_step sst dst m drop done slice rest_data f h Hmax Hrange Hother Hdata Hslice).
  apply (cont_synced sst dst m force drop done f h slice HMid Hwf Hdec).
Qed.

(* chunks that together carry exactly one message, completed by the last chunk *)
Fixpoint dec_one (st : sdec_state) (cs : list chunk) : option (sdec_state * msg) :=
  match cs with
  | [] => None
  | c :: r => match dec_chunk st c with
              | None => None
              | Some (st1, Some m) => match r with [] => Some (st1, m) | _ => None end
              | Some (st1, None) => dec_one st1 r
              end
  end.

(* what serializing a message on csid does to the remembered headers *)
Definition frame (sst sst' : sstate) (csid : N) (drop : bool) : Prop :=
  s_max sst' = s_max sst /\
  (forall c, c <> csid -> lookup c (s_prev sst') = lookup c (s_prev sst)) /\
  exists h, lookup csid (s_prev sst') = Some h /\ hdr_wf h /\ s_drop h = drop.

Lemma frame_insert sst csid h drop : hdr_wf h -> s_drop h = drop ->
  frame sst {| s_prev := insert csid h (s_prev sst); s_max := s_max sst |} csid drop.
Proof.
  intros Hw Hd. split; [reflexivity|]. split; [intros c Hc; apply lookup_insert_other; exact Hc|].
  exists h. cbn [s_prev]. rewrite lookup_insert_same. split; [reflexivity|split; assumption].
Qed.

Lemma frame_trans a b c csid drop : frame a b csid drop -> frame b c csid drop -> frame a c csid drop.
Proof.
  intros [A1 [A2 _]] [B1 [B2 B3]]. split; [rewrite B1; exact A1|]. split; [|exact B3].
  intros k Hk. rewrite (B2 k Hk). apply A2. exact Hk.
Qed.

Lemma add_chunks_cons st force m idx a r drop bs st' :
  add_chunks st force m idx (a :: r) drop = Ok (bs, st') ->
  let csid := get_csid_for_message_type (m_tid m) in
  exists f h bs', decide_header st force m (0 <? idx) drop = (f, h) /\
    add_chunks {| s_prev := insert csid h (s_prev st); s_max := s_max st |} force m (idx + 1) r drop = Ok (bs', st') /\
    bs = emit_chunk (chunk_of f csid h a) :: bs'.
Proof.
  cbn [add_chunks]. rewrite add_chunk_emit. cbv zeta. destruct (decide_header st force m (0 <? idx) drop) as [f h].
  cbn [obind]. intros H. apply obind_ok in H. destruct H as [[bs' st2] [H1 H2]]. injection H2 as <- <-.
  exists f, h, bs'. repeat split. exact H1.
Qed.

Lemma slices_nil fuel max : slices fuel max [] = Some [].
Proof. destruct fuel; reflexivity. Qed.

Lemma slices_cons fuel max x l sl : slices fuel max (x :: l) = Some sl ->
  exists fuel' a b r, sl = a :: r /\ split_at max (x :: l) = (a, b) /\ slices fuel' max b = Some r.
Proof.
  destruct fuel as [|fuel]; [discriminate|]. cbn [slices]. destruct (split_at max (x :: l)) as [a b].
  destruct (slices fuel max b) as [r|] eqn:E; [|discriminate]. intros H. injection H as <-. exists fuel, a, b, r. repeat split. exact E.
Qed.

(* The chunks of one message, by induction on its slices a :: r (never empty: a message without payload has the one
   slice []).  [done] has been sent, [remaining] is what a :: r carry. *)
Lemma msg_chunks sl : forall a r fuel sst dst m force drop idx done remaining b bs sst',
  sl = a :: r -> msg_wf m -> m_data m = done ++ remaining ->
  split_at (s_max sst) remaining = (a, b) -> slices fuel (s_max sst) b = Some r ->
  sd_max dst = s_max sst -> 1 <= s_max sst <= 2147483647 ->
  (forall c, c <> get_csid_for_message_type (m_tid m) -> sim1 (lookup c (s_prev sst)) (lookup c (sd_cs dst))) ->
  (forall f h, decide_header sst force m (0 <? idx) drop = (f, h) -> synced dst m drop done f h a) ->
  add_chunks sst force m idx sl drop = Ok (bs, sst') ->
  exists cs dst', bs = map emit_chunk cs /\ dec_one dst cs = Some (dst', m) /\ Sim sst' dst' /\
                  frame sst sst' (get_csid_for_message_type (m_tid m)) drop.
Proof.
  induction sl as [|a0 r0 IH]; intros a r fuel sst dst m force drop idx done remaining b bs sst' Esl Hwf Hdata Esp Hsl Hmax Hrange Hother Hsync Hadd;
    [discriminate|]. injection Esl as -> ->.
  destruct (split_at_spec _ _ _ _ Esp) as [Hrem Hla].
  destruct (add_chunks_cons _ _ _ _ _ _ _ _ _ Hadd) as [f [h [bs' [Edec [Eadd ->]]]]]. cbv zeta in Eadd.
  specialize (Hsync f h Edec).
  set (csid := get_csid_for_message_type (m_tid m)) in *.
  set (sst1 := {| s_prev := insert csid h (s_prev sst); s_max := s_max sst |}) in *.
  assert (Hfr : frame sst sst1 csid drop) by (destruct Hsync as [Hhw [[_ [_ [_ [_ Hdr]]]] _]]; apply frame_insert; assumption).
  pose proof (chunk_step sst dst m drop done a b f h Hmax Hrange Hother) as Hstep. fold csid sst1 in Hstep.
  destruct Hstep as [dst1 [om [Hdc [[-> [-> HSim1]]|[Hb [-> HMid1]]]]]];
    [rewrite Hdata, Hrem; reflexivity|rewrite Hla, Hdata, lenN_app; lia|exact Hsync| |].
  - rewrite slices_nil in Hsl. injection Hsl as <-. cbn [add_chunks] in Eadd. injection Eadd as <- <-.
    exists [chunk_of f csid h a], dst1. split; [reflexivity|]. split; [cbn [dec_one]; rewrite Hdc; reflexivity|].
    split; [exact HSim1|exact Hfr].
  - destruct b as [|x l]; [contradiction|].
    destruct (slices_cons _ _ _ _ _ Hsl) as [fuel' [a2 [b2 [r2 [-> [Esp2 Hsl2]]]]]]. pose proof HMid1 as [H1 [H2 [H3 _]]].
    destruct (IH a2 r2 fuel' sst1 dst1 m force drop (idx + 1) (done ++ a) (x :: l) b2 bs' sst' eq_refl Hwf) as [cs [dst' [-> [Hdo [HSim' Hfr']]]]];
      [rewrite <- app_assoc, <- Hrem; exact Hdata|exact Esp2|exact Hsl2|exact H1|exact H2|exact H3| |exact Eadd|].
    { intros f2 h2 E2. replace (0 <? idx + 1) with true in E2 by lia. apply (cont_synced sst1 dst1 m force drop _ f2 h2 a2 HMid1 Hwf E2). }
    exists (chunk_of f csid h a :: cs), dst'. split; [reflexivity|]. split; [cbn [dec_one]; rewrite Hdc; exact Hdo|].
    split; [exact HSim'|exact (frame_trans _ _ _ _ _ Hfr Hfr')].
Qed.

Lemma serialize_sim sst dst m force drop b sst' :
  Sim sst dst -> msg_wf m -> serialize sst m force drop = Ok (b, sst') ->
  exists cs dst', b = concat (map emit_chunk cs) /\ dec_one dst cs = Some (dst', m) /\ Sim sst' dst' /\
                  frame sst sst' (get_csid_for_message_type (m_tid m)) drop.
Proof.
  intros HSim Hwf Hser. unfold serialize in Hser. pose proof Hwf as [_ [_ [_ Hlen]]]. pose proof HSim as [Hmax [Hrange Hsim]].
  replace (16777215 <? lenN (m_data m)) with false in Hser by lia.
  destruct (slices (length (m_data m)) (s_max sst) (m_data m)) as [sl|] eqn:Esl; [|discriminate].
  apply obind_ok in Hser. destruct Hser as [[bs sst2] [Eadd H]]. injection H as <- <-.
  assert (Hsl : exists a b r fuel, match sl with [] => [[]] | _ :: _ => sl end = a :: r /\
                  split_at (s_max sst) (m_data m) = (a, b) /\ slices fuel (s_max sst) b = Some r).
  { destruct (m_data m) as [|x l].
    - (* no payload: one header-only chunk *)
      rewrite slices_nil in Esl. injection Esl as <-. exists [], [], [], 0%nat. split; [reflexivity|]. split; [|reflexivity].
      cbn [split_at]. destruct (s_max sst =? 0); reflexivity.
    - destruct (slices_cons _ _ _ _ _ Esl) as [fuel' [a [b [r [-> [E1 E2]]]]]]. exists a, b, r, fuel'. repeat split; assumption. }
  destruct Hsl as [a [b [r [fuel [Esl' [Esp Hsl]]]]]].
  destruct (msg_chunks _ a r fuel sst dst m force drop 0 [] (m_data m) b bs sst2 Esl' Hwf eq_refl Esp Hsl Hmax Hrange (fun c _ => Hsim c))
    as [cs [dst' [-> H]]]; [|exact Eadd|].
  { intros f h E. apply (first_synced sst dst m force drop f h a HSim Hwf E). }
  exists cs, dst'. split; [reflexivity|exact H].
Qed.

Lemma emit_nonempty c rest : exists b l, emit_chunk c ++ rest = b :: l.
Proof.
  rewrite emit_chunk_eq. unfold basic_header_bytes.
  destruct (c_form c =? 1); [|destruct (c_form c =? 2)]; cbn [app]; eexists; eexists; reflexivity.
Qed.

Lemma emit_length c : (1 <= length (emit_chunk c))%nat.
Proof. destruct (emit_nonempty c []) as [b [l E]]. rewrite app_nil_r in E. rewrite E. cbn [length]. lia. Qed.

Lemma sdec_bytes_run cs : forall st st' ms acc f,
  sdec_run st cs = Some (st', ms) -> (length (concat (map emit_chunk cs)) < f)%nat ->
  sdec_bytes f st (concat (map emit_chunk cs)) acc = (st', SOk (rev acc ++ ms)).
Proof.
  induction cs as [|c r IH]; intros st st' ms acc f H Hf; cbn [sdec_run map concat] in *.
  - injection H as <- <-. destruct f; [lia|]. rewrite app_nil_r. reflexivity.
  - destruct (dec_chunk st c) as [[st1 om]|] eqn:Edc; [|discriminate].
    destruct (proj1 (dec_chunk_spec _ _ _ _) Edc) as [s [Hwf [Hh [_ [Hp _]]]]].
    destruct f as [|f]; [lia|]. destruct (emit_nonempty c (concat (map emit_chunk r))) as [b0 [l0 E]].
    cbn [sdec_bytes]. rewrite E, <- E, (parse_emit st c _ s Hwf Hh Hp), Edc.
    rewrite app_length in Hf. pose proof (emit_length c) as Hc.
    destruct om as [m|]; [|apply IH; [exact H|lia]].
    destruct (apply_control st1 m) as [st2|]; [|discriminate].
    destruct (sdec_run st2 r) as [[st3 ms']|] eqn:Er; [|discriminate]. injection H as <- <-.
    rewrite (IH st2 st3 ms' (m :: acc) f Er) by lia. cbn [rev]. rewrite <- app_assoc. reflexivity.
Qed.

Fixpoint select {A} (keep : list bool) (l : list A) : list A :=
  match keep, l with
  | k :: ks, x :: xs => if k then x :: select ks xs else select ks xs
  | _, _ => []
  end.

Definition op_wf (op : ser_op) : Prop :=
  match op with
  | OpMsg m _ _ => msg_wf m /\ m_tid m <> 1
  | OpSize _ ts => ts < 4294967296
  end.

(* a packet may be withheld only if it was returned marked droppable *)
Fixpoint keep_ok (keep : list bool) (ops : list ser_op) : Prop :=
  match keep, ops with
  | [], [] => True
  | k :: ks, op :: r => (k = false -> op_drop op = true) /\ keep_ok ks r
  | _, _ => False
  end.

Lemma be32_bytes n : forallb (fun b => b <? 256) (be32 n) = true.
Proof. unfold be32. cbn [forallb]. lia. Qed.

Lemma step_sim sst dst op b sst' :
  Sim sst dst -> op_wf op -> ser_step sst op = Ok (b, sst') ->
  exists cs dst1 dst2, b = concat (map emit_chunk cs) /\ dec_one dst cs = Some (dst1, op_msg op) /\
                       apply_control dst1 (op_msg op) = Some dst2 /\ Sim sst' dst2 /\
                       (op_drop op = true -> Sim sst' dst).
Proof.
  intros HSim Hwf Hstep. destruct op as [m force drop|n ts]; cbn [ser_step op_msg op_drop op_wf] in *.
  - destruct Hwf as [Hwf Htid].
    destruct (serialize_sim sst dst m force drop b sst' HSim Hwf Hstep) as [cs [dst1 [Hb [Hdo [HS Hfr]]]]].
    exists cs, dst1, dst1. split; [exact Hb|]. split; [exact Hdo|]. split.
    + unfold apply_control. destruct (m_tid m =? 1) eqn:E; [lia|reflexivity].
    + split; [exact HS|]. intros Hdrop. subst drop.
      destruct Hfr as [F1 [F2 [h [F3 [F4 F5]]]]]. destruct HSim as [S1 [S2 S3]].
      split; [rewrite F1; exact S1|]. split; [rewrite F1; exact S2|].
      intros c. destruct (N.eq_dec c (get_csid_for_message_type (m_tid m))) as [->|Hne].
      * rewrite F3. split; [apply (S3 _)|]. intros p Hp. injection Hp as <-. split; [exact F4|]. rewrite F5. discriminate.
      * rewrite F2 by exact Hne. apply S3.
  - unfold set_max_chunk_size in Hstep.
    destruct ((n =? 0) || (2147483647 <? n)) eqn:En; [discriminate|].
    set (m := {| m_ts := ts; m_tid := TID_SetChunkSize; m_sid := 0; m_data := be32 n |}) in *.
    destruct (serialize sst m true false) as [[b' sst1]|e| |] eqn:Eser; cbn [obind] in Hstep; try discriminate.
    inversion Hstep; subst b sst'. clear Hstep.
    assert (Hmw : msg_wf m).
    { unfold msg_wf, m, TID_SetChunkSize. cbn [m_ts m_tid m_sid m_data]. change (lenN (be32 n)) with 4.
      lia. }
    destruct (serialize_sim sst dst m true false b' sst1 HSim Hmw Eser) as [cs [dst1 [Hb [Hdo [HS Hfr]]]]].
    exists cs, dst1, {| sd_max := n; sd_cs := sd_cs dst1 |}. split; [exact Hb|]. split; [exact Hdo|]. split.
    + unfold apply_control, m, TID_SetChunkSize. cbn [m_tid m_data]. change (1 =? 1) with true. cbv iota.
      change (take_n (be32 n) 4) with (Some (be32 n, @nil N)). cbv iota beta. rewrite of_be_be32 by lia.
      replace ((1 <=? n) && (n <=? 2147483647)) with true by lia. reflexivity.
    + split; [|discriminate]. destruct HS as [S1 [S2 S3]]. split; [reflexivity|]. split; [cbn [s_max]; lia|]. exact S3.
Qed.

Lemma ser_run_cons st op r packets st' : ser_run st (op :: r) = Ok (packets, st') ->
  exists b st1 bs, ser_step st op = Ok (b, st1) /\ ser_run st1 r = Ok (bs, st') /\ packets = b :: bs.
Proof.
  cbn [ser_run]. intros H. apply obind_ok in H. destruct H as [[b st1] [H1 H]].
  apply obind_ok in H. destruct H as [[bs st2] [H2 H]]. injection H as <- <-. exists b, st1, bs. repeat split; assumption.
Qed.

Lemma ser_run_inv (P : ser_op -> Prop) (I : sstate -> Prop) (Q : bytes -> Prop) :
  (forall st op b st', P op -> I st -> ser_step st op = Ok (b, st') -> Q b /\ I st') ->
  forall ops st packets st', Forall P ops -> I st -> ser_run st ops = Ok (packets, st') ->
  Forall Q packets /\ length packets = length ops /\ I st'.
Proof.
  intros Hstep. induction ops as [|op r IH]; intros st packets st' HP HI Hrun.
  - injection Hrun as <- <-. split; [constructor|]. split; [reflexivity|exact HI].
  - destruct (ser_run_cons _ _ _ _ _ Hrun) as [b [st1 [bs [E1 [E2 ->]]]]]. inversion HP as [|? ? Hop Hr]; subst.
    destruct (Hstep _ _ _ _ Hop HI E1) as [HQ HI1]. destruct (IH _ _ _ Hr HI1 E2) as [HQs [Hlen HI']].
    split; [constructor; assumption|]. split; [cbn [length]; f_equal; exact Hlen|exact HI'].
Qed.

Lemma sdec_run_one cs : forall st st1 m st2 r st3 ms,
  dec_one st cs = Some (st1, m) -> apply_control st1 m = Some st2 -> sdec_run st2 r = Some (st3, ms) ->
  sdec_run st (cs ++ r) = Some (st3, m :: ms).
Proof.
  induction cs as [|c cs IH]; intros st st1 m st2 r st3 ms Hd Ha Hr; [discriminate|].
  cbn [dec_one] in Hd. cbn [app sdec_run]. destruct (dec_chunk st c) as [[st' om]|]; [|discriminate].
  destruct om as [m'|].
  - destruct cs; [|discriminate]. injection Hd as -> ->. cbn [app]. rewrite Ha, Hr. reflexivity.
  - apply (IH _ _ _ _ _ _ _ Hd Ha Hr).
Qed.

(* T1 at the level of chunk records, from any simulated pair *)
Lemma run_sim_records ops : forall keep sst dst packets sst',
  Sim sst dst -> Forall op_wf ops -> ser_run sst ops = Ok (packets, sst') -> keep_ok keep ops ->
  exists cs dst', concat (select keep packets) = concat (map emit_chunk cs) /\
                  sdec_run dst cs = Some (dst', map op_msg (select keep ops)) /\ Sim sst' dst'.
Proof.
  induction ops as [|op r IH]; intros keep sst dst packets sst' HSim Hwf Hrun Hkeep.
  - injection Hrun as <- <-. destruct keep; [|contradiction]. exists [], dst. split; [reflexivity|]. split; [reflexivity|exact HSim].
  - destruct (ser_run_cons _ _ _ _ _ Hrun) as [b [sst1 [bs [Estep [Erun ->]]]]].
    inversion Hwf as [|? ? Hop Hr]; subst.
    destruct keep as [|k ks]; [contradiction|]. destruct Hkeep as [Hk Hks].
    destruct (step_sim sst dst op b sst1 HSim Hop Estep) as [cs [dst1 [dst2 [Hb [Hdo [Hac [HS2 HSd]]]]]]].
    cbn [select]. destruct k.
    + destruct (IH ks sst1 dst2 bs sst' HS2 Hr Erun Hks) as [cs' [dst' [Hc [Hs HS']]]].
      exists (cs ++ cs'), dst'. split; [cbn [concat]; rewrite Hb, Hc, map_app, concat_app; reflexivity|].
      split; [cbn [map]; apply (sdec_run_one cs dst dst1 (op_msg op) dst2 cs' dst' _ Hdo Hac Hs)|exact HS'].
    + apply (IH ks sst1 dst bs sst' (HSd (Hk eq_refl)) Hr Erun Hks).
Qed.

Lemma Sim_init : Sim ser_init sdec_init.
Proof.
  unfold Sim, ser_init, sdec_init, SER_INITIAL_MAX_CHUNK_SIZE. cbn [s_max sd_max s_prev sd_cs lookup].
  split; [reflexivity|]. split; [lia|]. intros c. split; intros ? H; discriminate.
Qed.

(* T1 (C08; with nothing withheld it is C07, ser_sdec below) *)
Theorem ser_sdec_drop ops keep packets sst' :
  Forall op_wf ops -> ser_run ser_init ops = Ok (packets, sst') -> keep_ok keep ops ->
  sdec (concat (select keep packets)) = SOk (map op_msg (select keep ops)).
Proof.
  intros Hwf Hrun Hkeep.
  destruct (run_sim_records ops keep ser_init sdec_init packets sst' Sim_init Hwf Hrun Hkeep) as [cs [dst' [-> [Hs _]]]].
  unfold sdec. rewrite (sdec_bytes_run cs sdec_init dst' _ [] _ Hs) by lia. reflexivity.
Qed.

Lemma keep_all_ok ops : keep_ok (map (fun _ => true) ops) ops.
Proof. induction ops as [|op r IH]; cbn; [exact I|]. split; [discriminate|exact IH]. Qed.

Lemma select_all {A B} (ops : list B) (l : list A) : length l = length ops -> select (map (fun _ => true) ops) l = l.
Proof.
  revert l. induction ops as [|op r IH]; intros l H; destruct l; cbn in *; try reflexivity; try discriminate.
  f_equal. apply IH. lia.
Qed.

Lemma ser_run_length ops sst packets sst' : ser_run sst ops = Ok (packets, sst') -> length packets = length ops.
Proof.
  intros H. apply (ser_run_inv (fun _ => True) (fun _ => True) (fun _ => True)) in H; [tauto| | |exact I].
  - intros; split; exact I.
  - apply Forall_forall. intros; exact I.
Qed.

Theorem ser_sdec ops packets sst' :
  Forall op_wf ops -> ser_run ser_init ops = Ok (packets, sst') ->
  sdec (concat packets) = SOk (map op_msg ops).
Proof.
  intros Hwf Hrun.
  pose proof (ser_sdec_drop ops (map (fun _ => true) ops) packets sst' Hwf Hrun (keep_all_ok ops)) as H.
  rewrite (select_all ops packets) in H by (apply (ser_run_length _ _ _ _ Hrun)).
  rewrite (select_all ops ops) in H by reflexivity. exact H.
Qed.

Theorem packets_nonempty ops packets sst' :
  Forall op_wf ops -> ser_run ser_init ops = Ok (packets, sst') -> Forall (fun b => b <> []) packets.
Proof.
  intros Hwf Hrun.
  apply (ser_run_inv op_wf (fun sst => exists dst, Sim sst dst) (fun b => b <> []) ) in Hrun; [tauto| |exact Hwf|exists sdec_init; exact Sim_init].
  intros sst op b sst1 Hop [dst HSim] Estep.
  destruct (step_sim sst dst op b sst1 HSim Hop Estep) as [cs [dst1 [dst2 [-> [Hdo [_ [HS2 _]]]]]]].
  split; [|exists dst2; exact HS2]. destruct cs as [|c cs']; [discriminate|]. cbn [map concat].
  destruct (emit_nonempty c (concat (map emit_chunk cs'))) as [x [l E]]. rewrite E. discriminate.
Qed.

(* non-vacuity: formats 0, 2, 3 and 1, a split payload, an extended timestamp, a chunk size change, a drop *)
Definition example_ops : list ser_op :=
  [ OpMsg {| m_ts := 10; m_tid := 8; m_sid := 1; m_data := [1; 2; 3] |} false false;
    OpMsg {| m_ts := 20; m_tid := 8; m_sid := 1; m_data := [4; 5; 6] |} false false;
    OpMsg {| m_ts := 30; m_tid := 8; m_sid := 1; m_data := [7; 8; 9] |} false true;
    OpSize 2 0;
    OpMsg {| m_ts := 16777300; m_tid := 8; m_sid := 1; m_data := [1; 2; 3; 4; 5] |} false false;
    OpMsg {| m_ts := 16777301; m_tid := 8; m_sid := 1; m_data := [] |} true false ].

Definition example_mask : list bool := [true; true; false; true; true; true].

Example example_run :
  match ser_run ser_init example_ops with
  | Ok (packets, _) => sdec (concat (select example_mask packets)) = SOk (map op_msg (select example_mask example_ops))
  | _ => False
  end.
Proof. vm_compute. reflexivity. Qed.
