(* C02 as one statement per direction: from a connected pair with linked chunk layers and enough window headroom for the command
   exchange, publish (or play) completes on both sides, EVERY sequence of media and metadata items is raised exactly once, in order,
   byte-exact under the application name and stream key - whatever the windows do during the media phase - and stopping raises the
   matching finished event. *)
From Coq Require Import Lia String.
From RML Require Import Model.Base Model.Utf8 Model.Chunk Model.Messages Model.SessionCommon
  Model.Server Model.Client Proofs.InteropProofs Proofs.ServerProofs Proofs.SessionFrame
  Proofs.ProtocolProofs Proofs.ProtocolFlow Proofs.AckHeadroom
  Proofs.ProtocolStart Proofs.ClientPartition Proofs.MessageProofs Spec.Amf0Wire
  Proofs.MetadataProofs Proofs.MetadataFits Proofs.PlayMetadata.
Local Open Scope N_scope.

Inductive pitem := PMedia (video : bool) (data : bytes) (ts : N) (drop : bool) | PMeta (md : metadata) (clock : N).
Definition pitem_wf (i : pitem) : Prop :=
  match i with PMedia _ data ts _ => ts < 4294967296 /\ data_wf data | PMeta md clock => md_ok md /\ enc_ok md /\ clock < 4294967296 end.
Definition pitem_event (app key : bytes) (i : pitem) : sevent :=
  match i with PMedia video data ts _ => media_event video app key data ts | PMeta md _ => EvMetadata app key md end.

Definition pitem_cevent (i : pitem) : cevent :=
  match i with PMedia video data ts _ => cmedia_event video data ts | PMeta md _ => CMetadata md end.

Definition of_item (i : item) : pitem := match i with Item video data ts drop => PMedia video data ts drop end.

Lemma of_item_wf items : Forall item_wf items -> Forall pitem_wf (map of_item items).
Proof. intros H. apply Forall_map. refine (Forall_impl _ _ H). intros [video data ts drop] Hi. exact Hi. Qed.

Lemma of_item_events app key items :
  map (pitem_event app key) (map of_item items) =
  map (fun i => match i with Item video data ts _ => media_event video app key data ts end) items.
Proof. rewrite map_map. apply map_ext. intros [video data ts drop]. reflexivity. Qed.

Lemma of_item_cevents items :
  map pitem_cevent (map of_item items) = map (fun i => match i with Item video data ts _ => cmedia_event video data ts end) items.
Proof. rewrite map_map. apply map_ext. intros [video data ts drop]. reflexivity. Qed.

(* publish_run (InteropProofs) over items that may also be metadata *)
Fixpoint publish_run3 (c : client) (s : server) (items : list pitem) (clock : N) : option (client * server * list sevent) :=
  match items with
  | [] => Some (c, s, [])
  | i :: r =>
    match (match i with PMedia video data ts drop => client_publish_media video c data ts drop | PMeta md k => client_publish_metadata c md k end) with
    | (c', COk [CPacket b _]) =>
      match server_handle_input s b clock with
      | (s', ROk rs) => match publish_run3 c' s' r clock with Some (c2, s2, evs) => Some (c2, s2, events rs ++ evs) | None => None end
      | _ => None
      end
    | _ => None
    end
  end.

Lemma publish_run3_media items : forall c s clock, publish_run3 c s (map of_item items) clock = publish_run c s items clock.
Proof.
  induction items as [|[video data ts drop] r IH]; intros c s clock; [reflexivity|]. cbn [map of_item publish_run3 publish_run].
  destruct (client_publish_media video c data ts drop) as [c' [[|[b d|e|u] [|? ?]]|e|]]; try reflexivity.
  destruct (server_handle_input s b clock) as [s' [rs|e|]]; try reflexivity. rewrite IH. reflexivity.
Qed.

Lemma publish_run3_keeps items : forall c s clock sid app key,
  Link (cl_ser c) (sv_de s) -> ser_ok (cl_ser c) -> ser_ok (sv_ser s) -> publishing_stream c = Ok sid -> sid < 4294967296 ->
  sv_connected s = true -> publishing_key s sid = Some (app, key) -> Forall pitem_wf items ->
  exists c' s', publish_run3 c s items clock = Some (c', s', map (pitem_event app key) items) /\
    Link (cl_ser c') (sv_de s') /\ ser_ok (cl_ser c') /\ ser_ok (sv_ser s') /\ publishing_stream c' = Ok sid /\
    sv_connected s' = true /\ publishing_key s' sid = Some (app, key).
Proof.
  induction items as [|i r IH]; intros c s clock sid app key HL Hcs Hser Hps Hsid Hc Hk Hwf.
  - exists c, s. repeat split; assumption.
  - inversion Hwf as [|? ? Hi Hr]; subst. destruct i as [video data ts drop|md k]; cbn [pitem_wf] in Hi.
    + destruct Hi as [Hts Hd].
      destruct (publish_media_delivered c s video data ts drop clock sid app key HL Hser Hps Hsid Hts Hd Hc Hk)
        as [b [c1 [s1 [rs [E1 [E2 [Hev [HL1 [Hser1 [Hps1 [Hc1 Hk1]]]]]]]]]]].
      assert (Hcs1 : ser_ok (cl_ser c1)).
      { pose proof (client_step_good c (CopMedia video data ts drop) Hcs) as [_ Hg]. cbn [client_step] in Hg. rewrite E1 in Hg. exact Hg. }
      destruct (IH c1 s1 clock sid app key HL1 Hcs1 Hser1 Hps1 Hsid Hc1 Hk1 Hr) as [c2 [s2 [E3 Hinv]]].
      exists c2, s2. split; [|exact Hinv]. cbn [publish_run3 map pitem_event]. rewrite E1, E2, E3, Hev. reflexivity.
    + destruct Hi as [Hm [He Hk0]].
      destruct (publish_metadata_always_delivered c s md k clock sid app key HL Hcs Hser Hps Hsid Hk0 Hm He Hc Hk)
        as [b [c1 [s1 [rs [E1 [E2 [Hev [HL1 [Hcs1 [Hser1 [Hps1 [Hc1 Hk1]]]]]]]]]]]].
      destruct (IH c1 s1 clock sid app key HL1 Hcs1 Hser1 Hps1 Hsid Hc1 Hk1 Hr) as [c2 [s2 [E3 Hinv]]].
      exists c2, s2. split; [|exact Hinv]. cbn [publish_run3 map pitem_event]. rewrite E1, E2, E3, Hev. reflexivity.
Qed.

Lemma publish_run_keeps items : forall c s clock sid app key,
  Link (cl_ser c) (sv_de s) -> ser_ok (cl_ser c) -> ser_ok (sv_ser s) -> publishing_stream c = Ok sid -> sid < 4294967296 ->
  sv_connected s = true -> publishing_key s sid = Some (app, key) -> Forall item_wf items ->
  exists c' s', publish_run c s items clock =
    Some (c', s', map (fun i => match i with Item video data ts _ => media_event video app key data ts end) items) /\
    Link (cl_ser c') (sv_de s') /\ ser_ok (cl_ser c') /\ ser_ok (sv_ser s') /\ publishing_stream c' = Ok sid /\
    sv_connected s' = true /\ publishing_key s' sid = Some (app, key).
Proof.
  intros c s clock sid app key HL Hcs Hser Hps Hsid Hc Hk Hwf. rewrite <- publish_run3_media, <- of_item_events.
  exact (publish_run3_keeps (map of_item items) c s clock sid app key HL Hcs Hser Hps Hsid Hc Hk (of_item_wf items Hwf)).
Qed.

Theorem publish_session_all_items c s app key t items k1 k2 k3 k4 k5 k6 k7 km ks1 ks2 :
  Link (cl_ser c) (sv_de s) -> Link (sv_ser s) (cl_de c) -> ser_ok (cl_ser c) -> ser_ok (sv_ser s) ->
  cl_state c = Connected -> cl_next_tr c < 4294967296 -> sv_next_stream s < 4294967296 ->
  sv_connected s = true -> sv_app s = Some app -> utf8_valid key = true -> lenN key <= 65000 ->
  k1 < 4294967296 -> k2 < 4294967296 -> k3 < 4294967296 -> k5 < 4294967296 -> ks1 < 4294967296 ->
  (forall w, ack_window (sv_ack s) = Some w -> ack_since (sv_ack s) + 2 * (17 * (lenN key + 200) + 16) < w) ->
  (forall w, ack_window (cl_ack c) = Some w -> ack_since (cl_ack c) + 3 * (17 * (lenN key + 200) + 16) < w) ->
  Forall pitem_wf items ->
  exists c1 b1 s1 b2 c2 b3 s2 s3 b4 b5 c3 c4 c5 s4 c6 b6 s5 r,
    client_request_publishing c key t k1 = (c1, COk [CPacket b1 false]) /\
    server_handle_input s b1 k2 = (s1, ROk [SPacket b2 false]) /\
    client_handle_input c1 b2 k3 = (c2, COk [CPacket b3 false]) /\
    server_handle_input s1 b3 k4 = (s2, ROk [SEvent (EvPublishRequested (sv_next_req s) app key (mode_of_type t))]) /\
    server_accept s2 (sv_next_req s) k5 = (s3, ROk [SPacket b4 false; SPacket b5 false]) /\
    client_handle_input c2 b4 k6 = (c3, COk []) /\
    client_handle_input c3 b5 k7 = (c4, COk [CEvent CPublishAccepted]) /\
    publish_run3 c4 s3 items km = Some (c5, s4, map (pitem_event app key) items) /\
    client_stop_publishing c5 ks1 = (c6, COk [CPacket b6 false]) /\ cl_state c6 = Connected /\
    server_handle_input s4 b6 ks2 = (s5, ROk r) /\ events r = [EvPublishFinished app key].
Proof.
  intros HL1 HL2 Hcs Hss Hst Htr Hid Hconn Happ Hkey Hkl K1 K2 K3 K5 KS HWs HWc Hitems.
  destruct (publish_completes_windows c s app key t k1 k2 k3 k4 k5 k6 k7 HL1 HL2 Hcs Hss Hst Htr Hid Hconn Happ Hkey Hkl K1 K2 K3 K5 HWs HWc)
    as [c1 [b1 [s1 [b2 [c2 [b3 [s2 [s3 [b4 [b5 [c3 [c4 [E1 [E2 [E3 [E4 [E5 [E6 [E7 [Hps [Hpk [HLa [HLb [Hcs4 [Hss3 Hconn3]]]]]]]]]]]]]]]]]]]]]]]]].
  destruct (publish_run3_keeps items c4 s3 km (sv_next_stream s) app key HLa Hcs4 Hss3 Hps Hid Hconn3 Hpk Hitems)
    as [c5 [s4 [Erun [HL5 [Hcs5 [Hss4 [Hps5 [Hconn4 Hpk4]]]]]]]].
  assert (Hst5 : cl_state c5 = Publishing /\ cl_stream c5 = Some (sv_next_stream s)).
  { unfold publishing_stream in Hps5. destruct (cl_state c5); try discriminate Hps5. destruct (cl_stream c5) as [x|]; [|discriminate Hps5].
    injection Hps5 as ->. split; reflexivity. }
  destruct Hst5 as [Hst5 Hstr5].
  destruct (proj1 (publishing_key_spec s4 (sv_next_stream s) app key) Hpk4) as [Happ4 [mode Hlk]].
  destruct (stop_publishing_raises_finished c5 s4 (sv_next_stream s) app key mode ks1 ks2 HL5 Hcs5 Hss4 Hst5 Hstr5 Hid KS Hconn4 Happ4 Hlk)
    as [c6 [b6 [s5 [r [F1 [F2 [F3 [F4 [F5 _]]]]]]]]].
  exists c1, b1, s1, b2, c2, b3, s2, s3, b4, b5, c3, c4, c5, s4, c6, b6, s5, r.
  repeat (split; [assumption|]). exact F5.
Qed.

Theorem publish_session c s app key t items k1 k2 k3 k4 k5 k6 k7 km ks1 ks2 :
  Link (cl_ser c) (sv_de s) -> Link (sv_ser s) (cl_de c) -> ser_ok (cl_ser c) -> ser_ok (sv_ser s) ->
  cl_state c = Connected -> cl_next_tr c < 4294967296 -> sv_next_stream s < 4294967296 ->
  sv_connected s = true -> sv_app s = Some app -> utf8_valid key = true -> lenN key <= 65000 ->
  k1 < 4294967296 -> k2 < 4294967296 -> k3 < 4294967296 -> k5 < 4294967296 -> ks1 < 4294967296 ->
  (forall w, ack_window (sv_ack s) = Some w -> ack_since (sv_ack s) + 2 * (17 * (lenN key + 200) + 16) < w) ->
  (forall w, ack_window (cl_ack c) = Some w -> ack_since (cl_ack c) + 3 * (17 * (lenN key + 200) + 16) < w) ->
  Forall item_wf items ->
  exists c1 b1 s1 b2 c2 b3 s2 s3 b4 b5 c3 c4 c5 s4 c6 b6 s5 r,
    client_request_publishing c key t k1 = (c1, COk [CPacket b1 false]) /\
    server_handle_input s b1 k2 = (s1, ROk [SPacket b2 false]) /\
    client_handle_input c1 b2 k3 = (c2, COk [CPacket b3 false]) /\
    server_handle_input s1 b3 k4 = (s2, ROk [SEvent (EvPublishRequested (sv_next_req s) app key (mode_of_type t))]) /\
    server_accept s2 (sv_next_req s) k5 = (s3, ROk [SPacket b4 false; SPacket b5 false]) /\
    client_handle_input c2 b4 k6 = (c3, COk []) /\
    client_handle_input c3 b5 k7 = (c4, COk [CEvent CPublishAccepted]) /\
    publish_run c4 s3 items km =
      Some (c5, s4, map (fun i => match i with Item video data ts _ => media_event video app key data ts end) items) /\
    client_stop_publishing c5 ks1 = (c6, COk [CPacket b6 false]) /\ cl_state c6 = Connected /\
    server_handle_input s4 b6 ks2 = (s5, ROk r) /\ events r = [EvPublishFinished app key].
Proof.
  intros HL1 HL2 Hcs Hss Hst Htr Hid Hconn Happ Hkey Hkl K1 K2 K3 K5 KS HWs HWc Hitems.
  setoid_rewrite <- publish_run3_media. rewrite <- of_item_events.
  exact (publish_session_all_items c s app key t (map of_item items) k1 k2 k3 k4 k5 k6 k7 km ks1 ks2 HL1 HL2 Hcs Hss Hst Htr Hid Hconn Happ Hkey Hkl
           K1 K2 K3 K5 KS HWs HWc (of_item_wf items Hitems)).
Qed.

(* Media flows server -> client; the client may owe Acknowledgements, which travel client -> server and must be read by the server
   before the deleteStream that follows them.  The media phase is followed with the client's own output packets. *)
Definition cpacket_list (rs : list cresult) : list bytes := flat_map (fun r => match r with CPacket b _ => [b] | _ => [] end) rs.

Lemma cpacket_list_app a b : cpacket_list (a ++ b) = cpacket_list a ++ cpacket_list b.
Proof. unfold cpacket_list. apply flat_map_app. Qed.

Lemma sends_app a l1 b : sends a l1 b -> forall l2 c, sends b l2 c -> sends a (l1 ++ l2) c.
Proof.
  induction 1 as [ser|ser m ts f bk ser1 bs ser' Hn Hts Hsend Hrest IH|ser n ts bk ser1 bs ser' Hn Hts Hset Hrest IH]; intros l2 c H2.
  - exact H2.
  - cbn [List.app]. eapply sends_msg; [exact Hn|exact Hts|exact Hsend|apply IH; exact H2].
  - cbn [List.app]. eapply sends_size; [exact Hn|exact Hts|exact Hset|apply IH; exact H2].
Qed.

Lemma ack_step_u32 a len a' n : ack_step a len = (a', Some n) -> n < 4294967296.
Proof.
  unfold ack_step. destruct (ack_window a) as [w|]; [|discriminate]. cbv zeta.
  destruct (w <=? _); [|discriminate]. intros E. injection E as _ <-. unfold u32_sat_add. lia.
Qed.

Lemma prelude_sends ser a len clock bs ser' : clock < 4294967296 -> prelude ser a len clock bs ser' -> sends ser bs ser'.
Proof.
  intros Hclk [_|n b ser2 Hn E]; [apply sends_nil|].
  apply (sends_msg ser (MAcknowledgement n) clock false b ser2 [] ser2); [|exact Hclk|exact E|apply sends_nil].
  right. right. right. right. exists n. split; [reflexivity|].
  apply (ack_step_u32 a len (fst (ack_step a len))). rewrite <- Hn. apply surjective_pairing.
Qed.

Lemma cpacket_list_packets bs : cpacket_list (map (fun b => CPacket b false) bs) = bs.
Proof. induction bs as [|b bs IH]; [reflexivity|]. cbn [map cpacket_list flat_map List.app]. f_equal. exact IH. Qed.

(* One message the server sends on the stream a client plays, of a kind whose handler raises one event and leaves the session as
   it is: the client returns that event after the packets it wrote itself. *)
Lemma play_message_out ser c M ts sid d b ser' clock ev :
  Link ser (cl_de c) -> ser_ok (cl_ser c) -> playing_on c sid -> msg_ok M -> plain M ->
  ts < 4294967296 -> sid < 4294967296 -> clock < 4294967296 ->
  (forall c0 p, of_payload (m_tid p) (m_data p) = Ok M -> m_sid p = sid -> m_ts p = ts -> playing_on c0 sid ->
     ch_message c0 p clock = (c0, COk [CEvent ev])) ->
  send_message ser M ts sid false d = Ok (b, ser') ->
  exists c' pre,
    client_handle_input c b clock = (c', COk (pre ++ [CEvent ev])) /\ cevents pre = [] /\
    Link ser' (cl_de c') /\ ser_ok (cl_ser c') /\ playing_on c' sid /\ cl_state c' = cl_state c /\
    sends (cl_ser c) (cpacket_list pre) (cl_ser c').
Proof.
  intros HL Hcs Hp Hok Hpl Hts Hsid Hclk Hev Es. destruct (plain_id M Hpl) as [Ht Ht1].
  destruct (client_reads_sent c ser M ts sid false d b ser' clock HL Hcs Hok Ht Ht1 Hts Hsid Es)
    as [p [de1 [de3 [bs [ser0 [Hof [Hs [Hts' [Hpre [HL2 E]]]]]]]]]].
  rewrite Hev in E; [|exact Hof|exact Hs|exact Hts'|exact Hp].
  eexists. exists (map (fun x => CPacket x false) bs). split; [exact E|].
  split; [rewrite <- (app_nil_r (map _ bs)); apply cevents_packets|]. split; [exact HL2|].
  split; [exact (prelude_ser_ok _ _ _ _ _ _ Hcs Hpre)|]. split; [exact Hp|]. split; [reflexivity|].
  rewrite cpacket_list_packets. exact (prelude_sends _ _ _ _ _ _ Hclk Hpre).
Qed.

Lemma server_send_media_ok video s sid data ts drop : ser_ok (sv_ser s) -> data_wf data ->
  exists b ser', server_send_media video s sid data ts drop = (upd_ser s ser', ROk [SPacket b drop]) /\
    send_message (sv_ser s) (media_msg video data) ts sid false drop = Ok (b, ser') /\ ser_ok ser'.
Proof.
  intros Hss Hd.
  destruct (send_fits (sv_ser s) (media_msg video data) ts sid false drop 16777215 Hss) as [b [ser' [Es Hs']]]; [|lia|].
  { exists (media_tid video), data. split; [apply to_payload_media|exact Hd]. }
  exists b, ser'. split; [|split; [exact Es|exact Hs']].
  destruct video; cbn [media_msg] in Es; unfold server_send_media, server_send_video, server_send_audio, one_packet, sending; rewrite Es; reflexivity.
Qed.

(* a metadata item the server sends: raised by the playing client as exactly that metadata, whatever the windows *)
Theorem play_metadata_out s c sid md clock cclock :
  Link (sv_ser s) (cl_de c) -> ser_ok (cl_ser c) -> ser_ok (sv_ser s) -> playing_on c sid -> sid < 4294967296 ->
  clock < 4294967296 -> cclock < 4294967296 -> md_ok md -> enc_ok md ->
  exists b ser' c' pre,
    server_send_metadata s sid md clock = (upd_ser s ser', ROk [SPacket b false]) /\
    client_handle_input c b cclock = (c', COk (pre ++ [CEvent (CMetadata md)])) /\ cevents pre = [] /\
    Link ser' (cl_de c') /\ ser_ok (cl_ser c') /\ ser_ok ser' /\ playing_on c' sid /\ cl_state c' = cl_state c /\
    sends (cl_ser c) (cpacket_list pre) (cl_ser c').
Proof.
  intros HL Hcs Hss Hp Hsid Hclk Hcclk Hm He.
  destruct (server_send_metadata_ok s sid md clock Hss He) as [b [ser' [Esend [Es Hser']]]].
  assert (Hok : msg_ok (MAmf0Data (smd_values md))).
  { cbn [msg_ok smd_values wf_values]. split; [reflexivity|split; [exact (md_props_server_wf md Hm He)|exact I]]. }
  destruct (play_message_out (sv_ser s) c (MAmf0Data (smd_values md)) clock sid false b ser' cclock (CMetadata md) HL Hcs Hp Hok I Hclk Hsid Hcclk)
    as [c' [pre [Hin [Hpre [HL2 [Hcs' [Hp' [Hst' Hsends]]]]]]]]; [|exact Es|].
  { intros c0 p Hof Hpsid _ [_ Hstr]. unfold ch_message. rewrite Hof. cbv iota. unfold ch_data, smd_values. rewrite Hstr, Hpsid, N.eqb_refl.
    rewrite bytes_eqb_refl, (metadata_roundtrip_server md Hm). reflexivity. }
  exists b, ser', c', pre. repeat (split; [assumption|]). exact Hsends.
Qed.

Lemma play_item_out s c sid i clock :
  Link (sv_ser s) (cl_de c) -> ser_ok (cl_ser c) -> ser_ok (sv_ser s) -> playing_on c sid -> sid < 4294967296 -> clock < 4294967296 ->
  pitem_wf i ->
  exists b d ser' c' pre,
    match i with
    | PMedia video data ts drop => server_send_media video s sid data ts drop
    | PMeta md k => server_send_metadata s sid md k
    end = (upd_ser s ser', ROk [SPacket b d]) /\
    client_handle_input c b clock = (c', COk (pre ++ [CEvent (pitem_cevent i)])) /\ cevents pre = [] /\
    Link ser' (cl_de c') /\ ser_ok (cl_ser c') /\ ser_ok ser' /\ playing_on c' sid /\ cl_state c' = cl_state c /\
    sends (cl_ser c) (cpacket_list pre) (cl_ser c').
Proof.
  intros HL Hcs Hss Hp Hsid Hclk Hi. destruct i as [video data ts drop|md k]; cbn [pitem_wf pitem_cevent] in *.
  - destruct Hi as [Hts Hd]. destruct (server_send_media_ok video s sid data ts drop Hss Hd) as [b [ser' [Esend [Es Hser']]]].
    assert (Hok : msg_ok (media_msg video data) /\ plain (media_msg video data)) by (destruct video; split; exact I).
    destruct (play_message_out (sv_ser s) c (media_msg video data) ts sid drop b ser' clock (cmedia_event video data ts)
                HL Hcs Hp (proj1 Hok) (proj2 Hok) Hts Hsid Hclk
                (fun c0 p => ch_message_media c0 p video data sid ts clock) Es)
      as [c' [pre [Hin [Hpre [HL2 [Hcs' [Hp' [Hst' Hsends]]]]]]]].
    exists b, drop, ser', c', pre. repeat (split; [assumption|]). exact Hsends.
  - destruct Hi as [Hm [He Hk]].
    destruct (play_metadata_out s c sid md k clock HL Hcs Hss Hp Hsid Hk Hclk Hm He) as [b [ser' [c' [pre H]]]].
    exists b, false, ser', c', pre. exact H.
Qed.

(* play_run (InteropProofs) that also collects the packets the client writes meanwhile; play_run3: the same over items that may
   also be metadata *)
Fixpoint play_run2 (s : server) (c : client) (sid : N) (items : list item) (clock : N)
  : option (server * client * list cevent * list bytes) :=
  match items with
  | [] => Some (s, c, [], [])
  | Item video data ts drop :: r =>
    match server_send_media video s sid data ts drop with
    | (s', ROk [SPacket b _]) =>
      match client_handle_input c b clock with
      | (c', COk rs) =>
        match play_run2 s' c' sid r clock with
        | Some (s2, c2, evs, out) => Some (s2, c2, cevents rs ++ evs, cpacket_list rs ++ out)
        | None => None
        end
      | _ => None
      end
    | _ => None
    end
  end.

Fixpoint play_run3 (s : server) (c : client) (sid : N) (items : list pitem) (clock : N)
  : option (server * client * list cevent * list bytes) :=
  match items with
  | [] => Some (s, c, [], [])
  | i :: r =>
    match (match i with PMedia video data ts drop => server_send_media video s sid data ts drop | PMeta md k => server_send_metadata s sid md k end) with
    | (s', ROk [SPacket b _]) =>
      match client_handle_input c b clock with
      | (c', COk rs) =>
        match play_run3 s' c' sid r clock with
        | Some (s2, c2, evs, out) => Some (s2, c2, cevents rs ++ evs, cpacket_list rs ++ out)
        | None => None
        end
      | _ => None
      end
    | _ => None
    end
  end.

Theorem play_run3_keeps items : forall s c sid clock,
  Link (sv_ser s) (cl_de c) -> ser_ok (cl_ser c) -> ser_ok (sv_ser s) -> playing_on c sid -> sid < 4294967296 -> clock < 4294967296 ->
  Forall pitem_wf items ->
  exists s' c' out,
    play_run3 s c sid items clock = Some (s', c', map pitem_cevent items, out) /\
    Link (sv_ser s') (cl_de c') /\ ser_ok (cl_ser c') /\ ser_ok (sv_ser s') /\ playing_on c' sid /\ cl_state c' = cl_state c /\
    sends (cl_ser c) out (cl_ser c') /\ same_core s s' /\ sv_de s' = sv_de s.
Proof.
  induction items as [|i r IH]; intros s c sid clock HL Hcs Hss Hp Hsid Hclk Hwf.
  - exists s, c, []. split; [reflexivity|]. repeat (split; [first [assumption|reflexivity|apply sends_nil|apply same_core_refl]|]). reflexivity.
  - inversion Hwf as [|? ? Hi Hr]; subst.
    destruct (play_item_out s c sid i clock HL Hcs Hss Hp Hsid Hclk Hi)
      as [b [d [ser' [c1 [pre [Esend [Hin [Hpre [HL2 [Hcs1 [Hss1 [Hp1 [Hst1 Hsends]]]]]]]]]]]]].
    destruct (IH (upd_ser s ser') c1 sid clock HL2 Hcs1 Hss1 Hp1 Hsid Hclk Hr)
      as [s2 [c2 [out [E3 [HL3 [Hcs2 [Hss2 [Hp2 [Hst2 [Hsends2 [Hcore Hde2]]]]]]]]]]].
    exists s2, c2, (cpacket_list pre ++ out). cbn [play_run3 map]. rewrite Esend, Hin, E3.
    split. { rewrite cevents_app, Hpre, cpacket_list_app. cbn [cevents flat_map List.app cpacket_list]. rewrite app_nil_r. reflexivity. }
    split; [exact HL3|]. split; [exact Hcs2|]. split; [exact Hss2|]. split; [exact Hp2|]. split; [rewrite Hst2; exact Hst1|].
    split; [exact (sends_app _ _ _ Hsends _ _ Hsends2)|]. split; [exact Hcore|exact Hde2].
Qed.

Lemma play_run3_media items : forall s c sid clock, play_run3 s c sid (map of_item items) clock = play_run2 s c sid items clock.
Proof.
  induction items as [|[video data ts drop] r IH]; intros s c sid clock; [reflexivity|]. cbn [map of_item play_run3 play_run2].
  destruct (server_send_media video s sid data ts drop) as [s' [[|[b d|e|u] [|? ?]]|e|]]; try reflexivity.
  destruct (client_handle_input c b clock) as [c' [rs|e|]]; try reflexivity. rewrite IH. reflexivity.
Qed.

Theorem play_run_keeps items : forall s c sid clock,
  Link (sv_ser s) (cl_de c) -> ser_ok (cl_ser c) -> ser_ok (sv_ser s) -> playing_on c sid -> sid < 4294967296 -> clock < 4294967296 ->
  Forall item_wf items ->
  exists s' c' out,
    play_run2 s c sid items clock =
      Some (s', c', map (fun i => match i with Item video data ts _ => cmedia_event video data ts end) items, out) /\
    Link (sv_ser s') (cl_de c') /\ ser_ok (cl_ser c') /\ ser_ok (sv_ser s') /\ playing_on c' sid /\ cl_state c' = cl_state c /\
    sends (cl_ser c) out (cl_ser c') /\ same_core s s' /\ sv_de s' = sv_de s.
Proof.
  intros s c sid clock HL Hcs Hss Hp Hsid Hclk Hwf. rewrite <- play_run3_media, <- of_item_cevents.
  exact (play_run3_keeps (map of_item items) s c sid clock HL Hcs Hss Hp Hsid Hclk (of_item_wf items Hwf)).
Qed.

Lemma same_core_trans a b c : same_core a b -> same_core b c -> same_core a c.
Proof. unfold same_core. intros [A1 [A2 [A3 [A4 [A5 [A6 [A7 A8]]]]]]] [B1 [B2 [B3 [B4 [B5 [B6 [B7 B8]]]]]]]. repeat split; congruence. Qed.

Theorem server_notes ser ser' b s m ts sclock f :
  noted m -> Link ser (sv_de s) -> ser_ok (sv_ser s) -> ts < 4294967296 ->
  send_message ser m ts 0 f false = Ok (b, ser') ->
  exists s2 r, server_handle_input s b sclock = (s2, ROk r) /\ same_core s s2 /\ Link ser' (sv_de s2) /\ ser_ok (sv_ser s2).
Proof.
  intros Hn HL Hss Hts Hsend. destruct (noted_ok m Hn) as [Hok Hpl]. destruct (plain_id m Hpl) as [Ht Ht1].
  destruct (server_reads_sent s ser m ts 0 f false b ser' sclock HL Hss Hok Ht Ht1 Hts ltac:(lia) Hsend)
    as [p [de1 [de3 [bs [ser0 [Hof [_ [_ [Hpre [HL2 E]]]]]]]]]].
  destruct (noted_server m s ser0 (fst (ack_step (sv_ack s) (lenN b))) de1 p sclock Hn Hof) as [a1 [out Hm]]. rewrite Hm in E.
  eexists. eexists. split; [exact E|]. split; [repeat split|]. split; [exact HL2|exact (prelude_ser_ok _ _ _ _ _ _ Hss Hpre)].
Qed.

(* the server's twin of cdeliver (ProtocolStart) *)
Fixpoint sdeliver (s : server) (ps : list bytes) (clock : N) : option server :=
  match ps with
  | [] => Some s
  | p :: r => match server_handle_input s p clock with (s1, ROk _) => sdeliver s1 r clock | _ => None end
  end.

Theorem server_absorbs ser bs ser' : sends ser bs ser' -> forall s clock,
  Link ser (sv_de s) -> ser_ok (sv_ser s) ->
  exists s', sdeliver s bs clock = Some s' /\ same_core s s' /\ Link ser' (sv_de s') /\ ser_ok (sv_ser s').
Proof.
  induction 1 as [ser|ser m ts f b ser1 bs ser' Hn Hts Hsend Hrest IH|ser n ts b ser1 bs ser' Hn Hts Hset Hrest IH]; intros s clock HL Hss.
  - exists s. split; [reflexivity|]. split; [apply same_core_refl|]. split; [exact HL|exact Hss].
  - destruct (server_notes ser ser1 b s m ts clock f Hn HL Hss Hts Hsend) as [s2 [r [Hin [Hcore [HL2 Hs2]]]]].
    destruct (IH s2 clock HL2 Hs2) as [s' [Hd [Hcore' [HL' Hs']]]].
    exists s'. cbn [sdeliver]. rewrite Hin. split; [exact Hd|]. split; [exact (same_core_trans _ _ _ Hcore Hcore')|]. split; [exact HL'|exact Hs'].
  - destruct (server_receives_chunk_size s ser n ts b ser1 clock HL Hss Hn Hts Hset) as [s2 [r [Hin [_ [Hcore [HL2 [Hs2 _]]]]]]].
    destruct (IH s2 clock HL2 Hs2) as [s' [Hd [Hcore' [HL' Hs']]]].
    exists s'. cbn [sdeliver]. rewrite Hin. split; [exact Hd|]. split; [exact (same_core_trans _ _ _ Hcore Hcore')|]. split; [exact HL'|exact Hs'].
Qed.

Theorem play_session_all_items c s app key items k1 k2 k3 k4 k5 k6 t1 t2 t3 t4 t5 km kd ks1 ks2 :
  Link (cl_ser c) (sv_de s) -> Link (sv_ser s) (cl_de c) -> ser_ok (cl_ser c) -> ser_ok (sv_ser s) ->
  cl_state c = Connected -> cl_next_tr c < 4294967296 -> sv_next_stream s < 4294967296 -> cc_buffer (cl_cfg c) < 4294967296 ->
  sv_connected s = true -> sv_app s = Some app -> utf8_valid key = true -> lenN key <= 65000 ->
  k1 < 4294967296 -> k2 < 4294967296 -> k3 < 4294967296 -> k6 < 4294967296 -> km < 4294967296 -> ks1 < 4294967296 ->
  (forall w, ack_window (sv_ack s) = Some w -> ack_since (sv_ack s) + 3 * (17 * (lenN key + 200) + 16) < w) ->
  (forall w, ack_window (cl_ack c) = Some w -> ack_since (cl_ack c) + 6 * (17 * (lenN key + 200) + 16) < w) ->
  Forall pitem_wf items ->
  exists c1 b1 s1 b2 c2 b3 b4 s2 s3 s4 p1 p2 p3 p4 p5 c3 c4 c5 c6 c7 s5 c8 out s6 c9 b9 s7 r,
    client_request_playback c key k1 = (c1, COk [CPacket b1 false]) /\
    server_handle_input s b1 k2 = (s1, ROk [SPacket b2 false]) /\
    client_handle_input c1 b2 k3 = (c2, COk [CPacket b3 false; CPacket b4 false]) /\
    server_handle_input s1 b3 k4 = (s2, ROk []) /\
    server_handle_input s2 b4 k5 = (s3, ROk [SEvent (EvPlayRequested (sv_next_req s) app key LiveOrRecorded None false (sv_next_stream s))]) /\
    server_accept s3 (sv_next_req s) k6 = (s4, ROk [SPacket p1 false; SPacket p2 false; SPacket p3 false; SPacket p4 false; SPacket p5 false]) /\
    client_handle_input c2 p1 t1 = (c3, COk [CEvent (CUnhandleableStatus (str "NetStream.Play.Reset"))]) /\
    client_handle_input c3 p2 t2 = (c4, COk []) /\
    client_handle_input c4 p3 t3 = (c5, COk [CEvent CPlaybackAccepted]) /\
    client_handle_input c5 p4 t4 = (c6, COk []) /\
    client_handle_input c6 p5 t5 = (c7, COk []) /\
    play_run3 s4 c7 (sv_next_stream s) items km = Some (s5, c8, map pitem_cevent items, out) /\
    sdeliver s5 out kd = Some s6 /\
    client_stop_playback c8 ks1 = (c9, COk [CPacket b9 false]) /\ cl_state c9 = Connected /\
    server_handle_input s6 b9 ks2 = (s7, ROk r) /\ events r = [EvPlayFinished app key].
Proof.
  intros HL1 HL2 Hcs Hss Hst Htr Hid Hbuf Hconn Happ Hkey Hkl K1 K2 K3 K6 KM KS HWs HWc Hitems.
  destruct (play_completes_windows c s app key k1 k2 k3 k4 k5 k6 t1 t2 t3 t4 t5 HL1 HL2 Hcs Hss Hst Htr Hid Hbuf Hconn Happ Hkey Hkl K1 K2 K3 K6 HWs HWc)
    as [c1 [b1 [s1 [b2 [c2 [b3 [b4 [s2 [s3 [s4 [p1 [p2 [p3 [p4 [p5 [c3 [c4 [c5 [c6 [c7
        [E1 [E2 [E3 [E4 [E5 [E6 [E7 [E8 [E9 [E10 [E11 [Hst7 [Hp7 [Hlk4 [Happ4 [Hconn4 [HLa [HLb [Hcs7 Hss4]]]]]]]]]]]]]]]]]]]]]]]]]]]]]]]]]]]]]]].
  destruct (play_run3_keeps items s4 c7 (sv_next_stream s) km HLb Hcs7 Hss4 Hp7 Hid KM Hitems)
    as [s5 [c8 [out [Erun [HL8 [Hcs8 [Hss5 [Hp8 [Hst8 [Hsends [Hcore5 Hde5]]]]]]]]]]].
  destruct (server_absorbs (cl_ser c7) out (cl_ser c8) Hsends s5 kd ltac:(rewrite Hde5; exact HLa) Hss5)
    as [s6 [Edel [Hcore6 [HL6 Hss6]]]].
  destruct Hcore5 as [A1 [A2 [A3 [A4 [A5 [A6 [A7 A8]]]]]]]. destruct Hcore6 as [B1 [B2 [B3 [B4 [B5 [B6 [B7 B8]]]]]]].
  destruct Hp8 as [_ Hstr8].
  destruct (stop_playback_raises_finished c8 s6 (sv_next_stream s) app key ks1 ks2 HL6 Hcs8 Hss6 ltac:(rewrite Hst8; exact Hst7) Hstr8 Hid KS
              ltac:(rewrite B4, A4; exact Hconn4) ltac:(rewrite B1, A1; exact Happ4) ltac:(rewrite B5, A5; exact Hlk4))
    as [c9 [b9 [s7 [r [F1 [F2 [F3 [F4 [F5 _]]]]]]]]].
  exists c1, b1, s1, b2, c2, b3, b4, s2, s3, s4, p1, p2, p3, p4, p5, c3, c4, c5, c6, c7, s5, c8, out, s6, c9, b9, s7, r.
  repeat (split; [assumption|]). exact F5.
Qed.

Theorem play_session c s app key items k1 k2 k3 k4 k5 k6 t1 t2 t3 t4 t5 km kd ks1 ks2 :
  Link (cl_ser c) (sv_de s) -> Link (sv_ser s) (cl_de c) -> ser_ok (cl_ser c) -> ser_ok (sv_ser s) ->
  cl_state c = Connected -> cl_next_tr c < 4294967296 -> sv_next_stream s < 4294967296 -> cc_buffer (cl_cfg c) < 4294967296 ->
  sv_connected s = true -> sv_app s = Some app -> utf8_valid key = true -> lenN key <= 65000 ->
  k1 < 4294967296 -> k2 < 4294967296 -> k3 < 4294967296 -> k6 < 4294967296 -> km < 4294967296 -> ks1 < 4294967296 ->
  (forall w, ack_window (sv_ack s) = Some w -> ack_since (sv_ack s) + 3 * (17 * (lenN key + 200) + 16) < w) ->
  (forall w, ack_window (cl_ack c) = Some w -> ack_since (cl_ack c) + 6 * (17 * (lenN key + 200) + 16) < w) ->
  Forall item_wf items ->
  exists c1 b1 s1 b2 c2 b3 b4 s2 s3 s4 p1 p2 p3 p4 p5 c3 c4 c5 c6 c7 s5 c8 out s6 c9 b9 s7 r,
    client_request_playback c key k1 = (c1, COk [CPacket b1 false]) /\
    server_handle_input s b1 k2 = (s1, ROk [SPacket b2 false]) /\
    client_handle_input c1 b2 k3 = (c2, COk [CPacket b3 false; CPacket b4 false]) /\
    server_handle_input s1 b3 k4 = (s2, ROk []) /\
    server_handle_input s2 b4 k5 = (s3, ROk [SEvent (EvPlayRequested (sv_next_req s) app key LiveOrRecorded None false (sv_next_stream s))]) /\
    server_accept s3 (sv_next_req s) k6 = (s4, ROk [SPacket p1 false; SPacket p2 false; SPacket p3 false; SPacket p4 false; SPacket p5 false]) /\
    client_handle_input c2 p1 t1 = (c3, COk [CEvent (CUnhandleableStatus (str "NetStream.Play.Reset"))]) /\
    client_handle_input c3 p2 t2 = (c4, COk []) /\
    client_handle_input c4 p3 t3 = (c5, COk [CEvent CPlaybackAccepted]) /\
    client_handle_input c5 p4 t4 = (c6, COk []) /\
    client_handle_input c6 p5 t5 = (c7, COk []) /\
    (* `out` = what the client wrote meanwhile (Acknowledgements, whenever its counter reached the server's window) *)
    play_run2 s4 c7 (sv_next_stream s) items km =
      Some (s5, c8, map (fun i => match i with Item video data ts _ => cmedia_event video data ts end) items, out) /\
    (* the server reads those, then the stop: exactly the matching finished event *)
    sdeliver s5 out kd = Some s6 /\
    client_stop_playback c8 ks1 = (c9, COk [CPacket b9 false]) /\ cl_state c9 = Connected /\
    server_handle_input s6 b9 ks2 = (s7, ROk r) /\ events r = [EvPlayFinished app key].
Proof.
  intros HL1 HL2 Hcs Hss Hst Htr Hid Hbuf Hconn Happ Hkey Hkl K1 K2 K3 K6 KM KS HWs HWc Hitems.
  setoid_rewrite <- play_run3_media. rewrite <- of_item_cevents.
  exact (play_session_all_items c s app key (map of_item items) k1 k2 k3 k4 k5 k6 t1 t2 t3 t4 t5 km kd ks1 ks2 HL1 HL2 Hcs Hss Hst Htr Hid Hbuf Hconn
           Happ Hkey Hkl K1 K2 K3 K6 KM KS HWs HWc (of_item_wf items Hitems)).
Qed.
