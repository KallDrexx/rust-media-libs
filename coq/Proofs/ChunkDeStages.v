(* The stages of the chunk parser as readers.  Every stage after the basic header takes a number of bytes that the
   rest of the state determines ([need]) off the front of the buffer, and builds the next state and the result from
   those bytes alone ([after], [emitted]).  Termination, independence of the input partition and the storage bound
   rest on this and on nothing else about the stages. *)
From RML Require Import Model.Base Model.Time Model.Chunk Model.ChunkDe Gen.Consts Proofs.BaseProofs.
Local Open Scope N_scope.

Definition next_stage (s : stage) : stage :=
  match s with
  | StCsid => StInitialTimestamp | StInitialTimestamp => StMessageLength | StMessageLength => StMessageTypeId
  | StMessageTypeId => StMessageStreamId | StMessageStreamId => StExtendedTimestamp
  | StExtendedTimestamp => StMessagePayload | StMessagePayload => StCsid
  end.

(* need, cur_after and after describe the stages after the basic header; their StCsid branches are never looked at
   (run_stage_reader excludes that stage, header_reader covers it) *)
Definition need (st : dstate) : N :=
  match d_stage st with
  | StCsid => 0
  | StInitialTimestamp => match d_fmt st with Empty => 0 | _ => 3 end
  | StMessageLength => match d_fmt st with DeltaOnly | Empty => 0 | _ => 3 end
  | StMessageTypeId => match d_fmt st with DeltaOnly | Empty => 0 | _ => 1 end
  | StMessageStreamId => match d_fmt st with Full => 4 | _ => 0 end
  | StExtendedTimestamp => if d_field (d_cur st) <? DE_MAX_INITIAL_TIMESTAMP then 0 else 4
  | StMessagePayload => N.min (d_len (d_cur st) - partial_len st) (d_max st)
  end.

(* the payload stage refuses a message length that the partial payload already exceeds (checked_sub) *)
Definition overrun (st : dstate) : bool :=
  match d_stage st with StMessagePayload => d_len (d_cur st) <? partial_len st | _ => false end.

Definition cur_after (st : dstate) (b : bytes) : dhdr :=
  let cur := d_cur st in
  match d_stage st with
  | StCsid => cur
  | StInitialTimestamp =>
    match d_fmt st with
    | Empty => if partial_len st =? 0 then hdr_with_ts cur (add_values (d_ts cur) (d_field cur)) else cur
    | Full => hdr_with_field (hdr_with_ts cur (of_be b)) (of_be b)
    | _ => hdr_with_field (hdr_with_ts cur (add_values (d_ts cur) (of_be b))) (of_be b)
    end
  | StMessageLength => match d_fmt st with DeltaOnly | Empty => cur | _ => hdr_with_len cur (of_be b) end
  | StMessageTypeId => match d_fmt st with DeltaOnly | Empty => cur | _ => hdr_with_tid cur (of_be b) end
  | StMessageStreamId => match d_fmt st with Full => hdr_with_sid cur (of_le b) | _ => cur end
  | StExtendedTimestamp =>
    if d_field cur <? DE_MAX_INITIAL_TIMESTAMP then cur
    else match d_fmt st with
         | Full => hdr_with_ts cur (of_be b)
         | _ => if partial_len st =? 0
                then hdr_with_ts cur (add_values (d_ts cur) (sub_values (of_be b) DE_MAX_INITIAL_TIMESTAMP)) else cur
         end
  | StMessagePayload => dhdr_new
  end.

Definition payload (st : dstate) (b : bytes) : bytes :=
  match lookup (d_csid (d_cur st)) (d_partial st) with Some p => p | None => [] end ++ b.

Definition emitted (st : dstate) (b : bytes) : option msg :=
  match d_stage st with
  | StMessagePayload =>
    if lenN (payload st b) =? d_len (d_cur st)
    then Some {| m_ts := d_ts (d_cur st); m_tid := d_tid (d_cur st); m_sid := d_sid (d_cur st); m_data := payload st b |}
    else None
  | _ => None
  end.

Definition after (st : dstate) (b r : bytes) : dstate :=
  {| d_max := d_max st; d_fmt := d_fmt st; d_cur := cur_after st b; d_stage := next_stage (d_stage st); d_buf := r;
     d_prev := match d_stage st with
               | StMessagePayload => insert (d_csid (d_cur st)) (d_cur st) (d_prev st)
               | _ => d_prev st
               end;
     d_partial := match d_stage st with
                  | StMessagePayload =>
                    if lenN (payload st b) =? d_len (d_cur st) then remove (d_csid (d_cur st)) (d_partial st)
                    else insert (d_csid (d_cur st)) (payload st b) (d_partial st)
                  | _ => d_partial st
                  end |}.

Lemma run_stage_reader st : d_stage st <> StCsid ->
  run_stage st =
  if overrun st then Err (InvalidMessageLength (d_csid (d_cur st)) (d_len (d_cur st)))
  else match take_n (d_buf st) (need st) with
       | None => Ok (NotEnoughBytes, st, None)
       | Some (b, r) => Ok (Success, after st b r, emitted st b)
       end.
Proof.
  destruct st as [mx f cur stg buf prev part]. unfold run_stage, overrun, need, after, emitted, cur_after. cbn [d_stage d_fmt d_buf].
  intros Hs. destruct stg; [contradiction| | | | | |].
  - unfold get_initial_timestamp. cbn [d_fmt d_buf]. destruct f; rewrite ?take_n_0; reflexivity.
  - unfold get_message_length. cbn [d_fmt d_buf]. destruct f; rewrite ?take_n_0; reflexivity.
  - (* this stage matches on the buffer instead of calling take_n *)
    unfold get_message_type_id. cbn [d_fmt d_buf]. destruct f; rewrite ?take_n_0; try reflexivity.
    all: destruct buf as [|x l]; [reflexivity|]; change (x :: l) with ([x] ++ l); rewrite (take_n_app_len [x] l 1 eq_refl); reflexivity.
  - unfold get_message_stream_id. cbn [d_fmt d_buf]. destruct f; rewrite ?take_n_0; reflexivity.
  - unfold get_extended_timestamp. cbn [d_fmt d_buf d_cur]. destruct (_ <? _); rewrite ?take_n_0; reflexivity.
  - unfold get_message_data, payload. cbn [d_fmt d_buf d_cur d_max]. destruct (_ <? _); reflexivity.
Qed.

Lemma get_csid_reads buf c n : get_csid buf = Some (c, n) ->
  exists b0 a r, buf = (b0 :: a) ++ r /\ lenN (b0 :: a) = n /\ forall r', get_csid ((b0 :: a) ++ r') = Some (c, n).
Proof.
  unfold get_csid. destruct buf as [|b0 r]; [discriminate|]. destruct (b0 mod 64) as [|p] eqn:E.
  - destruct r as [|b1 r]; [discriminate|]. intros H. injection H as <- <-.
    exists b0, [b1], r. repeat split. intros r'. cbn [app]. rewrite E. reflexivity.
  - destruct p as [p|p|].
    + intros H. injection H as <- <-. exists b0, [], r. repeat split. intros r'. cbn [app]. rewrite E. reflexivity.
    + intros H. injection H as <- <-. exists b0, [], r. repeat split. intros r'. cbn [app]. rewrite E. reflexivity.
    + destruct r as [|b1 [|b2 r]]; try discriminate. intros H. injection H as <- <-.
      exists b0, [b1; b2], r. repeat split. intros r'. cbn [app]. rewrite E. reflexivity.
Qed.

Definition hdr0 (csid : N) : dhdr := {| d_csid := csid; d_ts := 0; d_field := 0; d_len := 0; d_tid := 0; d_sid := 0 |}.

(* The header stage: format 0 starts from an empty header; the other formats take over the header their chunk stream
   remembers, which leaves previous_headers until the payload stage stores it again. *)
Definition header_start (f : fmt) (csid : N) (prev : list (N * dhdr)) : option (dhdr * list (N * dhdr)) :=
  match f with
  | Full => Some (hdr0 csid, prev)
  | _ => match lookup csid prev with Some h => Some (h, remove csid prev) | None => None end
  end.

Lemma header_reader st : d_stage st = StCsid ->
  run_stage st =
  match get_csid (d_buf st) with
  | None => Ok (NotEnoughBytes, st, None)
  | Some (csid, n) =>
    match header_start (get_format (hd 0 (d_buf st))) csid (d_prev st) with
    | None => Err (NoPreviousChunkOnStream csid)
    | Some (h, prev) =>
      Ok (Success, {| d_max := d_max st; d_fmt := get_format (hd 0 (d_buf st)); d_cur := h; d_stage := StInitialTimestamp;
                      d_buf := drop_n n (d_buf st); d_prev := prev; d_partial := d_partial st |}, None)
    end
  end.
Proof.
  intros Es. unfold run_stage. rewrite Es. unfold form_header, header_start. destruct (d_buf st) as [|b0 r]; [reflexivity|].
  destruct (get_csid (b0 :: r)) as [[c n]|]; [|reflexivity]. cbn [hd d_fmt set_fmt d_prev].
  destruct (get_format b0); try destruct (lookup c (d_prev st)); reflexivity.
Qed.

Lemma stage_eq_dec (a b : stage) : {a = b} + {a <> b}.
Proof. decide equality. Qed.

Lemma stage_consumes st st' om : run_stage st = Ok (Success, st', om) ->
  exists b, d_buf st = b ++ d_buf st' /\ d_stage st' = next_stage (d_stage st) /\
            (d_stage st = StCsid -> b <> []) /\
            (d_stage st <> StMessagePayload -> om = None /\ d_partial st' = d_partial st).
Proof.
  destruct (stage_eq_dec (d_stage st) StCsid) as [Es|Es].
  - rewrite (header_reader st Es), Es. destruct (get_csid (d_buf st)) as [[c n]|] eqn:Ec; [|discriminate].
    destruct (get_csid_reads _ _ _ Ec) as [b0 [a [r [Eb [Hl _]]]]].
    destruct (header_start _ c (d_prev st)) as [[h p]|]; [|discriminate]. intros H; injection H as <- <-.
    exists (b0 :: a). cbn [d_buf d_stage d_partial]. rewrite Eb, (drop_n_app _ r n Hl).
    split; [reflexivity|]. split; [reflexivity|]. split; [discriminate|]. intros _. split; reflexivity.
  - rewrite (run_stage_reader st Es). destruct (overrun st); [discriminate|].
    destruct (take_n (d_buf st) (need st)) as [[b r]|] eqn:E; [|discriminate]. intros H; injection H as <- <-.
    destruct (take_n_length _ _ _ _ E) as [Hb _]. exists b. cbn [after d_buf d_stage d_partial].
    split; [exact Hb|]. split; [reflexivity|]. split; [contradiction|].
    intros Hp. unfold emitted. destruct (d_stage st); try contradiction; split; reflexivity.
Qed.
