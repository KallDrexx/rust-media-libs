(* C18, structural part: the packets a successful session call returns are, in order, exactly the outputs of the serializer
   operations performed by that call, each operation well-formed and carrying the returned droppable flag.  With T1 this makes
   everything a session returned a chunk stream the specification decoder reads as the messages sent. *)
From Coq Require Import ZArith Lia ZifyN ZifyBool ZifyNat.
From RML Require Import Model.Base Model.Time Model.Chunk Model.ChunkSer Model.ChunkDe Model.Amf0 Model.Messages Model.SessionCommon
  Model.Server Gen.Consts Spec.ChunkSpec Proofs.BaseProofs Proofs.ChunkSerProofs Proofs.ChunkDeProofs Proofs.ChunkDeFuel
  Proofs.ChunkDeStages Proofs.Amf0Proofs Proofs.ConfigProofs Proofs.InteropProofs Proofs.SessionSend Proofs.ServerProofs Proofs.SessionFrame.
Local Open Scope N_scope.

(* A byte of the model is an N.  A stream id is read off four of them, and a handler answers on the stream of the message it
   was given; so that what a session sends is well-formed for the serializer (stream id below 2^32) the bytes it was fed have to
   be below 256.  That is why C18 asks bytes_ok of every input (sop_ok), and why the deserializer's state is part of sinv. *)
Definition bytes_ok (l : bytes) : Prop := Forall (fun b => b < 256) l.
Definition hdr_ok (h : dhdr) : Prop := d_sid h < 4294967296.
Definition de_ok (d : dstate) : Prop :=
  bytes_ok (d_buf d) /\ hdr_ok (d_cur d) /\ Forall (fun kv => hdr_ok (snd kv)) (d_prev d).

Lemma lookup_ok {A} (P : A -> Prop) k (m : list (N * A)) v : Forall (fun kv => P (snd kv)) m -> lookup k m = Some v -> P v.
Proof.
  induction m as [|[k' v'] r IH]; intros H E; [discriminate|]. cbn [lookup] in E. inversion H; subst.
  destruct (k =? k'); [injection E as <-; assumption|auto].
Qed.
Lemma remove_ok {A} (P : A -> Prop) k (m : list (N * A)) : Forall (fun kv => P (snd kv)) m -> Forall (fun kv => P (snd kv)) (remove k m).
Proof. induction m as [|[k' v'] r IH]; intros H; [constructor|]. cbn [remove]. inversion H; subst. destruct (k =? k'); [auto|constructor; auto]. Qed.
Lemma insert_ok {A} (P : A -> Prop) k v (m : list (N * A)) : P v -> Forall (fun kv => P (snd kv)) m -> Forall (fun kv => P (snd kv)) (insert k v m).
Proof. intros Hv H. unfold insert. constructor; [exact Hv|apply remove_ok; exact H]. Qed.

Lemma of_le4_bound b : lenN b = 4 -> bytes_ok b -> of_le b < 4294967296.
Proof.
  intros Hl Hb. unfold lenN in Hl. destruct b as [|b0 [|b1 [|b2 [|b3 [|x r]]]]]; cbn [length] in Hl; try lia.
  inversion Hb as [|? ? H0 Hb1]; subst. inversion Hb1 as [|? ? H1 Hb2]; subst. inversion Hb2 as [|? ? H2 Hb3]; subst.
  inversion Hb3 as [|? ? H3 _]; subst. unfold of_le. cbn [rev app be_val]. lia.
Qed.

Lemma get_csid_next_le b c n : get_csid b = Some (c, n) -> n <= lenN b.
Proof. intros H. destruct (get_csid_ext b c n [] H) as [_ [_ [_ H2]]]. exact H2. Qed.

(* only the stream id stage writes a stream id, four bytes little-endian *)
Lemma cur_after_ok st b : hdr_ok (d_cur st) -> bytes_ok b -> lenN b = need st -> hdr_ok (cur_after st b).
Proof.
  unfold cur_after, need, hdr_ok. intros Hc Hb Hl.
  destruct (d_stage st); [exact Hc| | | | | |reflexivity]; destruct (d_fmt st);
    try destruct (_ <? _); try destruct (_ =? 0); try exact Hc.
  apply of_le4_bound; assumption.
Qed.

Lemma stage_ok st r st' om : de_ok st -> run_stage st = Ok (r, st', om) ->
  de_ok st' /\ (forall m, om = Some m -> m_sid m < 4294967296).
Proof.
  intros Hok H. destruct r; [|destruct (stage_blocked _ _ _ H) as [-> ->]; split; [exact Hok|discriminate]].
  destruct Hok as [Hb [Hc Hp]]. unfold bytes_ok in Hb. destruct (stage_eq_dec (d_stage st) StCsid) as [Es|Es].
  - (* the header stage takes the header of an earlier chunk of the stream, or starts a new one *)
    destruct (stage_consumes _ _ _ H) as [b0 [Eb _]]. rewrite Eb in Hb. apply Forall_app in Hb. destruct Hb as [_ Hb'].
    unfold run_stage in H. rewrite Es in H. unfold form_header in H. cbn [d_fmt set_fmt d_prev] in H.
    destruct (d_buf st) as [|x rr]; [discriminate|]. destruct (get_csid (x :: rr)) as [[csid next]|]; [|discriminate].
    destruct (get_format x); [|destruct (lookup csid (d_prev st)) as [h|] eqn:El; [|discriminate]..];
      injection H as <- <-; (split; [|discriminate]); (split; [exact Hb'|split]);
      first [reflexivity|exact Hp|apply (lookup_ok hdr_ok _ _ _ Hp El)|apply remove_ok; exact Hp].
  - rewrite (run_stage_reader st Es) in H. destruct (overrun st); [discriminate|].
    destruct (take_n (d_buf st) (need st)) as [[b rr]|] eqn:E; [|discriminate]. injection H as <- <-.
    destruct (take_n_length _ _ _ _ E) as [Ebuf Hl]. rewrite Ebuf in Hb. apply Forall_app in Hb. destruct Hb as [Hbb Hb'].
    split.
    + split; [exact Hb'|]. split; [apply cur_after_ok; assumption|]. cbn [after d_prev].
      destruct (d_stage st); try exact Hp. apply insert_ok; assumption.
    + unfold emitted. destruct (d_stage st); try discriminate. destruct (_ =? _); [|discriminate]. intros m Hm. injection Hm as <-. exact Hc.
Qed.

Lemma stage_loop_ok fuel : forall st st' res, de_ok st -> stage_loop fuel st = (st', res) ->
  de_ok st' /\ (forall m, res = DMsg m -> m_sid m < 4294967296).
Proof.
  induction fuel as [|f IH]; intros st st' res Hok H; cbn [stage_loop] in H.
  - injection H as <- <-. split; [exact Hok|discriminate].
  - destruct (run_stage st) as [[[r st1] om]|e|x|] eqn:Er; try (injection H as <- <-; split; [exact Hok|discriminate]).
    destruct (stage_ok _ _ _ _ Hok Er) as [Hok1 Hm].
    destruct om as [m|].
    + injection H as <- <-. split; [exact Hok1|]. intros m' E. injection E as <-. apply (Hm m eq_refl).
    + destruct r; [apply (IH _ _ _ Hok1 H)|injection H as <- <-; split; [exact Hok1|discriminate]].
Qed.

Lemma gnm_ok d input d' res : de_ok d -> bytes_ok input -> get_next_message d input = (d', res) ->
  de_ok d' /\ (forall m, res = DMsg m -> m_sid m < 4294967296).
Proof.
  intros [Hb [Hc Hp]] Hi H. unfold get_next_message in H. apply (stage_loop_ok _ _ _ _) in H; [exact H|].
  split; [|split; assumption]. cbn [d_buf set_buf]. unfold bytes_ok. apply Forall_app. split; assumption.
Qed.

Lemma de_set_max_ok d n d' : de_ok d -> de_set_max_chunk_size d n = Ok d' -> de_ok d'.
Proof. unfold de_set_max_chunk_size. destruct (_ || _); [discriminate|]. intros H E. injection E as <-. exact H. Qed.

Lemma de_init_ok : de_ok de_init.
Proof. split; [apply Forall_nil|split; [reflexivity|apply Forall_nil]]. Qed.

Fixpoint pkts (rs : list sresult) : list (bytes * bool) :=
  match rs with
  | [] => []
  | SPacket b d :: r => (b, d) :: pkts r
  | _ :: r => pkts r
  end.

Lemma pkts_app a b : pkts (a ++ b) = pkts a ++ pkts b.
Proof. induction a as [|x a IH]; [reflexivity|]. destruct x; cbn [app pkts]; rewrite IH; reflexivity. Qed.

(* from ser0, well-formed serializer operations produce exactly the packets pk, with their droppable flags, and end in ser1 *)
Definition emits (ser0 : sstate) (pk : list (bytes * bool)) (ser1 : sstate) : Prop :=
  exists ops, Forall op_wf ops /\ ser_run ser0 ops = Ok (map fst pk, ser1) /\ map op_drop ops = map snd pk.

(* emits ser0 (pkts rs) ser1, written out *)
Definition produces (ser0 : sstate) (rs : list sresult) (ser1 : sstate) : Prop :=
  exists ops, Forall op_wf ops /\ ser_run ser0 ops = Ok (map fst (pkts rs), ser1) /\ map op_drop ops = map snd (pkts rs).

Lemma ser_run_app a : forall ser b pa ser1 pb ser2,
  ser_run ser a = Ok (pa, ser1) -> ser_run ser1 b = Ok (pb, ser2) -> ser_run ser (a ++ b) = Ok (pa ++ pb, ser2).
Proof.
  induction a as [|op a IH]; intros ser b pa ser1 pb ser2 Ha Hb.
  - cbn [ser_run] in Ha. injection Ha as <- <-. exact Hb.
  - cbn [ser_run app] in *. destruct (ser_step ser op) as [[p0 s0]|e|x|]; cbn [obind] in *; try discriminate.
    destruct (ser_run s0 a) as [[pa' s1]|e|x|] eqn:Ea; cbn [obind] in *; try discriminate. injection Ha as <- <-.
    rewrite (IH s0 b pa' s1 pb ser2 Ea Hb). reflexivity.
Qed.

Lemma emits_nil ser : emits ser [] ser.
Proof. exists []. split; [constructor|split; reflexivity]. Qed.

Lemma emits_app ser0 a ser1 b ser2 : emits ser0 a ser1 -> emits ser1 b ser2 -> emits ser0 (a ++ b) ser2.
Proof.
  intros [oa [Wa [Ra Da]]] [ob [Wb [Rb Db]]]. exists (oa ++ ob). split; [apply Forall_app; split; assumption|].
  rewrite !map_app. split; [apply (ser_run_app _ _ _ _ _ _ _ Ra Rb)|rewrite Da, Db; reflexivity].
Qed.

Lemma sendable_tid m tid body : sendable m = true -> to_payload m = Ok (tid, body) -> tid < 256 /\ tid <> 1.
Proof.
  unfold to_payload. destruct (message_body m) as [b| | |]; cbn [obind]; try discriminate. intros Hs E. injection E as <- _.
  destruct m; try discriminate; cbn; unfold TID_Abort, TID_Acknowledgement, TID_Amf0Command, TID_Amf0Data, TID_AudioData,
    TID_SetPeerBandwidth, TID_UserControl, TID_VideoData, TID_WindowAcknowledgement; lia.
Qed.

Lemma send_message_emits ser m ts sid f d b ser' :
  sendable m = true -> ts < 4294967296 -> sid < 4294967296 ->
  send_message ser m ts sid f d = Ok (b, ser') -> emits ser [(b, d)] ser'.
Proof.
  intros Hs Hts Hsid E. unfold send_message in E.
  destruct (to_payload m) as [[tid body]|e|x|] eqn:Et; try discriminate.
  destruct (sendable_tid m tid body Hs Et) as [T1 T2].
  set (msg := {| m_ts := ts; m_tid := tid; m_sid := sid; m_data := body |}) in *.
  destruct (ChunkSer.serialize ser msg f d) as [[b0 s0]|e|x|] eqn:Es; try discriminate. injection E as <- <-.
  exists [OpMsg msg f d]. split.
  - constructor; [|constructor]. cbn [op_wf]. split; [|exact T2]. unfold msg_wf, msg. cbn [m_ts m_tid m_sid m_data].
    repeat split; try assumption. unfold ChunkSer.serialize in Es. destruct (16777215 <? lenN (m_data msg)) eqn:El; [discriminate|]. cbn [msg m_data] in El. lia.
  - cbn [ser_run ser_step obind map fst snd op_drop]. rewrite Es. cbn [obind]. split; reflexivity.
Qed.

Lemma set_max_emits ser n ts b ser' : ts < 4294967296 -> ChunkSer.set_max_chunk_size ser n ts = Ok (b, ser') -> emits ser [(b, false)] ser'.
Proof.
  intros Hts E. exists [OpSize n ts]. split; [constructor; [exact Hts|constructor]|].
  cbn [ser_run ser_step obind map fst snd op_drop]. rewrite E. cbn [obind]. split; reflexivity.
Qed.

Lemma produces_app ser0 a ser1 b ser2 : produces ser0 a ser1 -> produces ser1 b ser2 -> produces ser0 (a ++ b) ser2.
Proof. unfold produces. rewrite pkts_app. apply emits_app. Qed.

(* the packets among the results of a successful call are what the serializer emitted between ser0 and the state the call left *)
Definition traced (ser0 : sstate) (c : call) : Prop :=
  match snd c with ROk rs => produces ser0 rs (sv_ser (fst c)) | _ => True end.

Lemma events_only_pkts rs : events_only rs = true -> pkts rs = [].
Proof. induction rs as [|[b d|e|m] r IH]; cbn [events_only forallb pkts andb]; [reflexivity|discriminate|exact IH..]. Qed.

Lemma run_traced ser0 plan : forall s acc, Forall item_ok plan -> produces ser0 acc (sv_ser s) -> traced ser0 (run s plan acc).
Proof.
  induction plan as [|[m ts sid f d|n ts|e] r IH]; intros s acc Hp Ha; cbn [run]; [exact Ha|..]; inversion Hp as [|? ? Hi Hr]; subst.
  - destruct Hi as [Hm [Hts Hsid]]. unfold sending.
    destruct (send_message (sv_ser s) m ts sid f d) as [[b ser']|e|x|] eqn:E; try exact I.
    apply (IH _ _ Hr), (produces_app _ _ _ _ _ Ha), (send_message_emits _ _ _ _ _ _ _ _ Hm Hts Hsid E).
  - destruct (ChunkSer.set_max_chunk_size (sv_ser s) n ts) as [[b ser']|e|x|] eqn:E; try exact I.
    apply (IH _ _ Hr), (produces_app _ _ _ _ _ Ha), (set_max_emits _ _ _ _ _ Hi E).
  - apply (IH _ _ Hr), (produces_app _ _ _ _ _ Ha), emits_nil.
Qed.

Lemma handled_traced M sid clock c c' ser0 : clock < 4294967296 -> sid < 4294967296 ->
  handled M sid clock c c' -> (forall s1 s2, M s1 s2 -> sv_ser s1 = ser0) -> traced ser0 c.
Proof.
  intros Hc Hs [s1 s2 e H1|s1 s2 plan acc H1 H2 H3] HM; [exact I|]. apply run_traced.
  - assert (Hi : forall i, i = 0 \/ i = sid -> i < 4294967296) by (intros i [->| ->]; [reflexivity|exact Hs]).
    apply (Forall_impl _ (fun it => sends_at_ok clock _ it Hc Hi) H3).
  - rewrite (HM s1 s2 H1). unfold produces. rewrite (events_only_pkts _ H2). apply emits_nil.
Qed.

Lemma h_message_traced s p clock : clock < 4294967296 -> m_sid p < 4294967296 -> traced (sv_ser s) (h_message s p clock).
Proof. intros Hc Hs. apply (handled_traced _ _ _ _ _ _ Hc Hs (h_message_handled1 s p clock)), moves_ser. Qed.

Definition req_ok (r : request) : Prop := match r with RPublish _ _ sid | RPlay _ sid => sid < 4294967296 | RConnection _ _ => True end.
Definition reqs_ok (rq : list (N * request)) : Prop := Forall (fun kv => req_ok (snd kv)) rq.
(* what keeps the stream ids of a session's packets below 2^32: the messages it is given have such a one (de_ok), and so have
   the registered requests, which accept and reject answer on later *)
Definition sinv (s : server) : Prop := de_ok (sv_de s) /\ reqs_ok (sv_reqs s).

Lemma cmoves_sinv sid s s1 : cmoves sid s s1 -> sid < 4294967296 -> sinv s -> sinv s1.
Proof.
  intros [|oe r Hr| |delete k st El] Hs [Hd Hq]; split; try assumption.
  apply (insert_ok req_ok); [|exact Hq]. destruct r; cbn [req_at req_ok] in *; subst; exact I || exact Hs.
Qed.

Lemma h_message_sinv s p clock : m_sid p < 4294967296 -> sinv s -> sinv (fst (h_message s p clock)).
Proof.
  intros Hs Hi. apply (handled_lift _ _ _ sinv _ _ (fun _ _ H => H) (h_message_handled1 s p clock)).
  intros s1 s2 [? ? [Hc _]|n d d2 E _|n]; [apply (cmoves_sinv _ _ _ Hc Hs Hi)| |exact Hi].
  destruct Hi as [Hd Hq]. split; [apply (de_set_max_ok _ _ _ Hd E)|exact Hq].
Qed.

Lemma h_loop_traced clock fuel : forall s input acc ser0,
  clock < 4294967296 -> sinv s -> bytes_ok input -> produces ser0 acc (sv_ser s) ->
  match h_loop fuel s input clock acc with
  | (s', ROk rs) => produces ser0 rs (sv_ser s') /\ sinv s'
  | _ => True
  end.
Proof.
  induction fuel as [|f IH]; intros s input acc ser0 Hc [Hd Hr] Hi Hp; cbn [h_loop]; [exact I|].
  destruct (get_next_message (sv_de s) input) as [d res] eqn:Eg.
  destruct (gnm_ok _ _ _ _ Hd Hi Eg) as [Hd1 Hm].
  destruct res as [p| |e|]; try exact I.
  - pose proof (Hm p eq_refl) as Hsid.
    pose proof (h_message_traced (upd_de s d) p clock Hc Hsid) as Ht.
    pose proof (h_message_sinv (upd_de s d) p clock Hsid (conj Hd1 Hr)) as Hv.
    destruct (h_message (upd_de s d) p clock) as [s1 r]. unfold traced in Ht. cbn [fst snd] in *.
    destruct r as [rs|e|]; try exact I.
    apply (IH s1 [] (acc ++ rs) ser0 Hc Hv (Forall_nil _)), (produces_app ser0 acc (sv_ser s) rs (sv_ser s1) Hp Ht).
  - exact (conj Hp (conj Hd1 Hr)).
Qed.

Theorem server_handle_input_traced s input clock :
  clock < 4294967296 -> sinv s -> bytes_ok input -> ser_ok (sv_ser s) ->
  match server_handle_input s input clock with
  | (s', ROk rs) => produces (sv_ser s) rs (sv_ser s') /\ sinv s'
  | _ => True
  end.
Proof.
  intros Hc Hinv Hi Hs. destruct (server_handle_input_loop s input clock Hs) as [ser0 [acc0 [-> [_ Hacc]]]].
  apply (h_loop_traced clock); [exact Hc|exact Hinv|exact Hi|]. cbn [sv_ser upd_ack upd_ser].
  destruct (snd (ack_step (sv_ack s) (lenN input))) as [n|]; [destruct Hacc as [b [E ->]]|destruct Hacc as [-> ->]; apply emits_nil].
  apply (send_message_emits _ (MAcknowledgement n) clock 0 false false b ser0 eq_refl Hc ltac:(lia) E).
Qed.

Definition sop_ok (op : sop) : Prop :=
  match op with
  | OpInput i c => bytes_ok i /\ c < 4294967296
  | OpAccept _ c | OpReject _ _ _ c | OpPing c => c < 4294967296
  | OpMetadata sid _ c | OpFinish sid c => sid < 4294967296 /\ c < 4294967296
  | OpVideo sid _ ts _ | OpAudio sid _ ts _ => sid < 4294967296 /\ ts < 4294967296
  end.

Lemma amoves_sinv s s1 : amoves s s1 -> sinv s -> sinv s1.
Proof.
  intros Ha [Hd Hq]. induction Ha as [|id r El|s0 app _ IH|s0 sid st st' _ IH Es]; try exact IH; [split; assumption|].
  split; [exact Hd|apply (remove_ok req_ok); exact Hq].
Qed.

Lemma op_at_ok s op : sop_ok op -> sinv s -> fst (op_at s op) < 4294967296 /\ snd (op_at s op) < 4294967296.
Proof.
  intros Hop [_ Hq].
  assert (Hr : forall id, match lookup id (sv_reqs s) with Some r => req_sid r | None => 0 end < 4294967296).
  { intros id. destruct (lookup id (sv_reqs s)) as [r|] eqn:El; [|reflexivity].
    pose proof (lookup_ok req_ok _ _ _ Hq El) as Hsid. destruct r; [reflexivity|exact Hsid..]. }
  destruct op; cbn [op_at sop_ok fst snd] in *; try (split; [apply Hr || reflexivity|]); try tauto.
Qed.

Theorem server_step_traced s op : sop_ok op -> sinv s -> ser_ok (sv_ser s) ->
  match server_step s op with
  | (s', ROk rs) => produces (sv_ser s) rs (sv_ser s') /\ sinv s'
  | _ => True
  end.
Proof.
  intros Hop Hi Hs. destruct (is_input op) eqn:Eo.
  - destruct op; try discriminate Eo. destruct Hop as [Hb Hc]. apply server_handle_input_traced; assumption.
  - pose proof (server_call_handled s op Eo) as Hh. destruct (op_at_ok s op Hop Hi) as [Hsid Hc].
    pose proof (handled_traced _ _ _ _ _ (sv_ser s) Hc Hsid Hh (fun s1 _ Ha => proj1 (amoves_io s s1 Ha))) as Ht.
    pose proof (handled_lift _ _ _ sinv _ _ (fun _ _ H => H) Hh (fun s1 _ Ha => amoves_sinv s s1 Ha Hi)) as Hv.
    unfold traced in Ht. destruct (server_step s op) as [s' r]. destruct r; try exact I. split; assumption.
Qed.

Lemma server_new_traced c clock : clock < 4294967296 ->
  match server_new c clock with
  | (s0, ROk rs0) => produces ser_init rs0 (sv_ser s0) /\ sinv s0
  | _ => True
  end.
Proof.
  intros Hc. pose proof (server_new_handled c clock) as Hh.
  pose proof (handled_traced _ 0 _ _ _ ser_init Hc eq_refl Hh ltac:(intros s1 s2 <-; reflexivity)) as Ht.
  assert (Hv : sinv (fst (server_new c clock))).
  { apply (handled_lift _ _ _ sinv _ _ (fun _ _ H => H) Hh). intros s1 s2 <-. split; [exact de_init_ok|apply Forall_nil]. }
  unfold traced in Ht. destruct (server_new c clock) as [s0 r]. destruct r; try exact I. split; assumption.
Qed.

(* a history of calls that all succeed, and everything they returned *)
Fixpoint server_trace (s : server) (ops : list sop) : option (server * list sresult) :=
  match ops with
  | [] => Some (s, [])
  | op :: r =>
    match server_step s op with
    | (s', ROk rs) => match server_trace s' r with Some (s2, rs2) => Some (s2, rs ++ rs2) | None => None end
    | _ => None
    end
  end.

Lemma server_trace_produced ops : forall s s' rs, Forall sop_ok ops -> sinv s -> ser_ok (sv_ser s) ->
  server_trace s ops = Some (s', rs) -> produces (sv_ser s) rs (sv_ser s').
Proof.
  induction ops as [|op r IH]; intros s s' rs Hok Hi Hs H; cbn [server_trace] in H.
  - injection H as <- <-. apply emits_nil.
  - inversion Hok as [|? ? Ho Hr]; subst.
    pose proof (server_step_traced s op Ho Hi Hs) as Ht. pose proof (server_step_good s op Hs) as [_ Hs1].
    destruct (server_step s op) as [s1 r1]. cbn [fst] in Hs1. destruct r1 as [rs1| |]; try discriminate. destruct Ht as [Hp Hi1].
    destruct (server_trace s1 r) as [[s2 rs2]|] eqn:E; [|discriminate]. injection H as <- <-.
    apply (produces_app _ _ _ _ _ Hp). apply (IH s1 s2 rs2 Hr Hi1 Hs1 E).
Qed.

(* keep says which packets get through: only one flagged droppable may be withheld *)
Fixpoint keep_flags_ok (keep : list bool) (flags : list bool) : Prop :=
  match keep, flags with
  | [], [] => True
  | k :: ks, f :: fs => (k = false -> f = true) /\ keep_flags_ok ks fs
  | _, _ => False
  end.

Lemma keep_flags_ops keep : forall ops, keep_flags_ok keep (map op_drop ops) -> keep_ok keep ops.
Proof.
  induction keep as [|k ks IH]; intros ops H; destruct ops as [|op r]; cbn [map keep_flags_ok keep_ok] in *; try contradiction; [exact I|].
  destruct H as [H1 H2]. split; [exact H1|apply IH; exact H2].
Qed.

Lemma select_map {A B} (f : A -> B) keep : forall l, select keep (map f l) = map f (select keep l).
Proof.
  induction keep as [|k ks IH]; intros [|x l]; cbn [select map]; try reflexivity. destruct k; cbn [map]; rewrite IH; reflexivity.
Qed.

(* T1, stated of packets *)
Lemma emits_decodable pk ser1 keep : emits ser_init pk ser1 -> keep_flags_ok keep (map snd pk) ->
  exists sent, length sent = length pk /\ sdec (concat (select keep (map fst pk))) = SOk (select keep sent).
Proof.
  intros [sops [Hwf [Hrun Hdrops]]] Hkeep. exists (map op_msg sops). split.
  - rewrite map_length. rewrite <- (map_length op_drop), Hdrops, map_length. reflexivity.
  - rewrite <- Hdrops in Hkeep. rewrite (ser_sdec_drop sops keep _ _ Hwf Hrun (keep_flags_ops keep sops Hkeep)).
    rewrite select_map. reflexivity.
Qed.

(* C18: everything a server session returned in a history of successful calls, with any subset of the droppable packets withheld,
   is read by the specification decoder as exactly the messages of the surviving packets *)
Theorem server_history_decodable cfg clock0 ops s0 rs0 s' rs keep :
  clock0 < 4294967296 -> Forall sop_ok ops ->
  server_new cfg clock0 = (s0, ROk rs0) -> server_trace s0 ops = Some (s', rs) ->
  keep_flags_ok keep (map snd (pkts (rs0 ++ rs))) ->
  exists sent, length sent = length (pkts (rs0 ++ rs)) /\
    sdec (concat (select keep (map fst (pkts (rs0 ++ rs))))) = SOk (select keep sent).
Proof.
  intros Hc Hok Hnew Htr Hkeep.
  pose proof (server_new_traced cfg clock0 Hc) as Hn. pose proof (server_new_good cfg clock0) as [_ Hs0]. rewrite Hnew in Hn, Hs0. cbn [fst] in Hs0.
  destruct Hn as [P0 Hi0].
  apply (emits_decodable _ (sv_ser s') keep (produces_app _ _ _ _ _ P0 (server_trace_produced ops s0 s' rs Hok Hi0 Hs0 Htr)) Hkeep).
Qed.
