(* C03: entry points that take network input return a value or an error. *)
From RML Require Import Model.Base Model.Amf0 Model.ChunkDe Model.Messages Model.Handshake
  Proofs.Amf0Total Proofs.ChunkDeProofs.
Local Open Scope N_scope.

Definition is_value_or_error {A E} (o : outcome A E) : Prop := match o with Ok _ | Err _ => True | Panic _ | OutOfFuel => False end.

(* message decoder: all 256 type ids (and beyond), arbitrary bodies *)
Theorem of_payload_total tid data : is_value_or_error (of_payload tid data).
Proof.
  assert (HA : forall d (f : list value -> outcome rtmp_message msg_de_err), (forall vs, is_value_or_error (f vs)) ->
              is_value_or_error (match Amf0.deserialize d with Err e => Err (DeAmf0 e) | Panic s => Panic s | OutOfFuel => OutOfFuel | Ok vs => f vs end)).
  { intros d f Hf. pose proof (deserialize_total d) as H. destruct (Amf0.deserialize d); try contradiction; [apply Hf|exact I]. }
  assert (Hd : forall d, is_value_or_error (de_amf0_data d)) by (intros d; apply HA; intros; exact I).
  assert (Hc : forall d, is_value_or_error (de_amf0_command d))
    by (intros d; apply HA; intros vs; destruct vs as [|[] [|[] [|obj args]]]; exact I).
  assert (Hu : forall g d, is_value_or_error (de_u32 g d)) by (intros g d; unfold de_u32; destruct (read_u32 d) as [[n r]|]; exact I).
  unfold of_payload.
  destruct (tid =? 1). { destruct (read_u32 data) as [[n r]|]; [destruct (_ <? n)|]; exact I. }
  destruct (tid =? 2); [apply Hu|]. destruct (tid =? 3); [apply Hu|].
  destruct (tid =? 4).
  { unfold de_user_control. destruct (read_u16 data) as [[c r]|]; [|exact I]. destruct (uc_of_code c) as [ev|]; [|exact I].
    destruct (read_u32 r) as [[a r2]|]; [|exact I]. destruct ev; try exact I. destruct (read_u32 r2) as [[b r3]|]; exact I. }
  destruct (tid =? 5); [apply Hu|].
  destruct (tid =? 6).
  { destruct (read_u32 data) as [[n r]|]; [|exact I]. destruct r as [|c r']; [exact I|].
    destruct (c =? _); [exact I|]. destruct (c =? _); [exact I|]. destruct (c =? _); exact I. }
  destruct (tid =? 8); [exact I|]. destruct (tid =? 9); [exact I|].
  destruct (tid =? 18); [apply Hd|]. destruct (tid =? 20); [apply Hc|]. destruct (tid =? 15); [apply Hd|].
  destruct (tid =? 17); [destruct data as [|[|p] r]; apply Hc|exact I].
Qed.

Theorem run_stage_total st : is_value_or_error (run_stage st).
Proof. pose proof (stage_ext st []) as H. destruct (run_stage st); [exact I|exact I|contradiction|contradiction]. Qed.

(* handshake: a step never fails other than by one of the two declared errors (no panic sites in the model: the digest
   offsets are always inside the packet - C11_offset_range) *)
Theorem hs_step_total hmac h : match snd (hs_step hmac h) with SProgress _ | SDone _ | SFail _ => True end.
Proof. destruct (snd (hs_step hmac h)); exact I. Qed.
