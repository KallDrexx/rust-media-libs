(* The publish and the play workflow, composed from the stage theorems of ProtocolFlow, and a criterion for their receiving calls
   to be `quiet`: the window the receiver was told exceeds its outstanding count by more than the packet, and a packet is at most
   17 * body + 16 bytes (SerSizeProofs).  One exchange theorem per workflow leaves open what a receiving call guarantees before the
   rest (guard); it is instantiated with `quiet -> ...` and with paying one packet of window headroom. *)
From Coq Require Import Lia String.
From RML Require Import Model.Base Model.Chunk Model.Messages Model.SessionCommon Proofs.SerSizeProofs
  Proofs.InteropProofs Proofs.ProtocolProofs Proofs.ProtocolFlow Model.Server Model.Client Model.Utf8 Proofs.ServerProofs.
Local Open Scope N_scope.

Lemma quiet_of_headroom a b : (forall w, ack_window a = Some w -> ack_since a + lenN b < w) -> quiet a b.
Proof.
  intros H. unfold quiet, ack_step. destruct (ack_window a) as [w|] eqn:E; [|reflexivity]. specialize (H w eq_refl). cbv zeta.
  replace (w <=? u32_sat_add (ack_since a) (N.min (lenN b) 4294967295)) with false; [reflexivity|]. unfold u32_sat_add. lia.
Qed.

Theorem send_message_size ser m ts sid f d b ser' :
  ser_ok ser -> send_message ser m ts sid f d = Ok (b, ser') ->
  exists tid body, to_payload m = Ok (tid, body) /\ lenN b <= 17 * lenN body + 16.
Proof.
  intros Hs Hsend. destruct (send_message_inv _ _ _ _ _ _ _ _ Hsend) as [tid [body [Etp Es]]].
  exists tid, body. split; [exact Etp|]. apply (serialize_size _ _ _ _ _ _ Hs Es).
Qed.

Theorem quiet_when_headroom ser m ts sid f d b ser' a tid body :
  ser_ok ser -> send_message ser m ts sid f d = Ok (b, ser') -> to_payload m = Ok (tid, body) ->
  (forall w, ack_window a = Some w -> ack_since a + 17 * lenN body + 16 < w) -> quiet a b.
Proof.
  intros Hs Hsend Etp H. destruct (send_message_size _ _ _ _ _ _ _ _ Hs Hsend) as [tid' [body' [E' Hl]]].
  rewrite Etp in E'. injection E' as <- <-. apply quiet_of_headroom. intros w Hw. specialize (H w Hw). lia.
Qed.

Lemma ack_step_bound a n : ack_window (fst (ack_step a n)) = ack_window a /\ ack_since (fst (ack_step a n)) <= ack_since a + n.
Proof.
  unfold ack_step. destruct (ack_window a) as [w|] eqn:E; [|cbn [fst]; split; [exact E|lia]]. cbv zeta.
  destruct (w <=? u32_sat_add (ack_since a) (N.min n 4294967295)); cbn [fst ack_window ack_since]; (split; [reflexivity|]); unfold u32_sat_add; lia.
Qed.

Lemma packet_bound ser m ts sid f d b ser' L :
  ser_ok ser -> send_message ser m ts sid f d = Ok (b, ser') ->
  body_le m L -> lenN b <= 17 * L + 16.
Proof.
  intros Hs Hsend [tid [body [E Hl]]]. destruct (send_message_size _ _ _ _ _ _ _ _ Hs Hsend) as [tid' [body' [E' Hb]]].
  rewrite E in E'. injection E' as <- <-. lia.
Qed.

(* room for k more packets of at most P bytes before the window is reached *)
Definition headroom (k P : N) (a : ack_state) : Prop := forall w, ack_window a = Some w -> ack_since a + k * P < w.

Lemma headroom_step k P a b : headroom (k + 1) P a -> lenN b <= P -> quiet a b /\ headroom k P (fst (ack_step a (lenN b))).
Proof.
  intros H Hb. destruct (ack_step_bound a (lenN b)) as [Hw Hs]. split.
  - apply quiet_of_headroom. intros w E. specialize (H w E). rewrite N.mul_add_distr_r in H. lia.
  - intros w E. rewrite Hw in E. specialize (H w E). rewrite N.mul_add_distr_r in H. lia.
Qed.

(* reading b takes the receiver's counter from a to a' and costs one packet of headroom *)
Definition spends (P : N) (a : ack_state) (b : bytes) (a' : ack_state) : Prop :=
  forall k, headroom (k + 1) P a -> quiet a b /\ headroom k P a'.

Lemma spends_packet {P a a' ser m ts sid f d b ser'} L :
  ser_ok ser -> send_message ser m ts sid f d = Ok (b, ser') ->
  body_le m L -> 17 * L + 16 <= P ->
  a' = fst (ack_step a (lenN b)) -> spends P a b a'.
Proof.
  intros Hs Hsend Hbody HP -> k H. pose proof (packet_bound _ _ _ _ _ _ _ _ L Hs Hsend Hbody) as Hb.
  apply headroom_step; [exact H|lia].
Qed.

(* a packet of these exchanges is at most this long: bodies are at most |key| + 200 bytes (the body bounds of ProtocolFlow) *)
Definition packet_max (key : bytes) : N := 17 * (lenN key + 200) + 16.

(* The guard of the exchange theorems (what reading b, which moves the counter from a to a', guarantees before the rest K), read
   as: with room for one packet more at a, there is room for that much less at a', and K holds.  b is not looked at: it stands
   there so that paying P and quiet-implies have the one type of guard. *)
Definition paying (P : N) (a : ack_state) (b : bytes) (a' : ack_state) (K : Prop) : Prop :=
  forall k, headroom (k + 1) P a -> headroom k P a' /\ K.

Lemma paying_intro P a b a' (K : Prop) : spends P a b a' -> (quiet a b -> K) -> paying P a b a' K.
Proof. intros Sp HK k H. destruct (Sp k H) as [Q H']. exact (conj H' (HK Q)). Qed.

Lemma request_keeps_counter c p clock c1 r : create_stream_request c p clock = (c1, r) -> cl_ack c1 = cl_ack c.
Proof.
  intros E. change c1 with (fst (c1, r)). rewrite <- E. unfold create_stream_request. destruct (cl_state c); try reflexivity.
  unfold new_transaction, cone_packet, csending. cbv zeta. destruct (send_message _ _ _ _ _ _) as [[b ser']|e|x|]; reflexivity.
Qed.

Section Exchange.
Variables (key : bytes) (guard : ack_state -> bytes -> ack_state -> Prop -> Prop).
Hypothesis guard_intro : forall a b a' (K : Prop), spends (packet_max key) a b a' -> (quiet a b -> K) -> guard a b a' K.

(* One receiving call of an exchange.  The packet b carries a message whose body is bounded; its delivery gives the call, its
   events, and the guard of whatever holds of the receiver as it ends when no acknowledgement falls due: that is t, but for
   its counter and its deserializer. *)
Lemma server_level {s b clock ser' t out ser m ts sid f d} {K : server -> list sresult -> Prop} L :
  sdelivers s b clock ser' t out ->
  ser_ok ser -> send_message ser m ts sid f d = Ok (b, ser') -> body_le m L -> 17 * L + 16 <= packet_max key ->
  (forall a de, Link ser' de -> ser_ok (sv_ser t) -> K (upd_de (upd_ack t a) de) out) ->
  exists s' rs, server_handle_input s b clock = (s', ROk rs) /\ events rs = events out /\ guard (sv_ack s) b (sv_ack s') (K s' rs).
Proof.
  intros [s' [rs [E [Hev [Hcore [HL [Hs [Hack Hq]]]]]]]] Hser Hsend Hbody HP HK. exists s', rs. split; [exact E|]. split; [exact Hev|].
  apply guard_intro; [exact (spends_packet L Hser Hsend Hbody HP Hack)|].
  intros Q. destruct (Hq Q) as [-> Hser']. replace s' with (upd_de (upd_ack t (sv_ack s')) (sv_de s')).
  - apply HK; [exact HL|rewrite <- Hser'; exact Hs].
  - destruct Hcore as [H1 [H2 [H3 [H4 [H5 [H6 [H7 H8]]]]]]]. destruct t, s'. cbn in *. subst. reflexivity.
Qed.

Lemma client_level {c b clock ser' t out ser m ts sid f d} {K : client -> list cresult -> Prop} L :
  cdelivers c b clock ser' t out ->
  ser_ok ser -> send_message ser m ts sid f d = Ok (b, ser') -> body_le m L -> 17 * L + 16 <= packet_max key ->
  (forall a de, Link ser' de -> ser_ok (cl_ser t) -> K (cupd_de (cupd_ack t a) de) out) ->
  exists c' rs, client_handle_input c b clock = (c', COk rs) /\ cevents rs = cevents out /\ guard (cl_ack c) b (cl_ack c') (K c' rs).
Proof.
  intros [c' [rs [E [Hev [Hcore [HL [Hs [Hack Hq]]]]]]]] Hser Hsend Hbody HP HK. exists c', rs. split; [exact E|]. split; [exact Hev|].
  apply guard_intro; [exact (spends_packet L Hser Hsend Hbody HP Hack)|].
  intros Q. destruct (Hq Q) as [-> Hser']. replace c' with (cupd_de (cupd_ack t (cl_ack c')) (cl_de c')).
  - apply HK; [exact HL|rewrite <- Hser'; exact Hs].
  - destruct Hcore as [H1 [H2 [H3 [H4 [H5 H6]]]]]. destruct t, c'. cbn in *. subst. reflexivity.
Qed.

Lemma with_fact {X Y} (A : Prop) (R : X -> Y -> Prop) : A -> (exists x y, R x y) -> exists x y, A /\ R x y.
Proof. intros HA [x [y H]]. exists x, y. exact (conj HA H). Qed.

(* k1..k7 (and t1..t5 in play_exchange) are the clock readings of the successive calls; only the readings that end up as
   time stamps of packets need to be below 2^32. *)
Theorem publish_exchange c s app t k1 k2 k3 k4 k5 k6 k7 :
  Link (cl_ser c) (sv_de s) -> Link (sv_ser s) (cl_de c) -> ser_ok (cl_ser c) -> ser_ok (sv_ser s) ->
  cl_state c = Connected -> cl_next_tr c < 4294967296 -> sv_next_stream s < 4294967296 ->
  sv_connected s = true -> sv_app s = Some app -> utf8_valid key = true -> lenN key <= 65000 ->
  k1 < 4294967296 -> k2 < 4294967296 -> k3 < 4294967296 -> k5 < 4294967296 ->
  exists c1 b1 s1 r2,
    client_request_publishing c key t k1 = (c1, COk [CPacket b1 false]) /\
    server_handle_input s b1 k2 = (s1, ROk r2) /\ events r2 = [] /\
  guard (sv_ack s) b1 (sv_ack s1) (
  exists b2 c2 r3, r2 = [SPacket b2 false] /\
    client_handle_input c1 b2 k3 = (c2, COk r3) /\ cevents r3 = [] /\
  guard (cl_ack c1) b2 (cl_ack c2) (
  exists b3 s2 r4, r3 = [CPacket b3 false] /\
    server_handle_input s1 b3 k4 = (s2, ROk r4) /\ events r4 = [EvPublishRequested (sv_next_req s) app key (mode_of_type t)] /\
  guard (sv_ack s1) b3 (sv_ack s2) (
  r4 = [SEvent (EvPublishRequested (sv_next_req s) app key (mode_of_type t))] /\
  exists s3 b4 b5, server_accept s2 (sv_next_req s) k5 = (s3, ROk [SPacket b4 false; SPacket b5 false]) /\
  exists c3 r6, client_handle_input c2 b4 k6 = (c3, COk r6) /\ cevents r6 = [] /\
  guard (cl_ack c2) b4 (cl_ack c3) (r6 = [] /\
  exists c4 r7, client_handle_input c3 b5 k7 = (c4, COk r7) /\ cevents r7 = [CPublishAccepted] /\
  guard (cl_ack c3) b5 (cl_ack c4) (r7 = [CEvent CPublishAccepted] /\
  publishing_stream c4 = Ok (sv_next_stream s) /\ publishing_key s3 (sv_next_stream s) = Some (app, key) /\
  Link (cl_ser c4) (sv_de s3) /\ Link (sv_ser s3) (cl_de c4) /\ ser_ok (cl_ser c4) /\ ser_ok (sv_ser s3) /\ sv_connected s3 = true))))).
Proof.
  intros HL1 HL2 Hcs Hss Hst Htr Hid Hconn Happ Hkey Hkl K1 K2 K3 K5.
  assert (HP : 17 * 200 + 16 <= packet_max key) by (unfold packet_max; lia).
  destruct (create_stream_delivered c s (PurposePublish key t) k1 k2 HL1 Hss Hst Htr K1)
    as [b1 [ser1 [b2 [ser2 [Es1 [Ereq [Hs1 [Es2 D1]]]]]]]].
  set (c1 := cupd_ser _ ser1) in Ereq.
  exists c1, b1. apply with_fact; [exact Ereq|].
  apply (server_level 200 D1 Hcs Es1 (create_cmd_body _) HP). intros a1 de1 HLa Hss1. set (s1 := upd_de _ de1).
  destruct (create_result_publish (sv_ser s) ser2 b2 c1 (cl_next_tr c) (sv_next_stream s) key t k2 k3 (Sent (sid := 0) HL2 Hs1 K2 ltac:(lia) Es2) Htr Hid ltac:(lia)
              (ChunkSpecProofs.lookup_insert_same _ _ _)) as [b3 [ser3 [Es3 D2]]].
  exists b2. apply with_fact; [reflexivity|].
  apply (client_level 200 D2 Hss Es2 (create_reply_body _ _) HP). intros a2 de2 HLb Hcs2. set (c2 := cupd_de _ de2).
  exists b3. apply with_fact; [reflexivity|].
  apply (server_level (lenN key + 200) (publish_request_delivered ser1 ser3 b3 s1 key t (sv_next_stream s) app k3 k4 (Sent HLa Hss1 K3 Hid Es3) Hkey Hconn Happ)
           Hs1 Es3 (publish_cmd_body key t ltac:(lia)) (N.le_refl _)).
  intros a3 de3 HLc Hss2. set (s2 := upd_de _ de3). split; [reflexivity|].
  destruct (publish_accepted s2 (sv_next_req s) key (mode_of_type t) (sv_next_stream s) StCreated k5 Hss2 Hkl
              (ChunkSpecProofs.lookup_insert_same _ _ _) (ChunkSpecProofs.lookup_insert_same _ _ _))
    as [b4 [serm [b5 [ser5 [Es4 [Es5 [Hs5 Hacc]]]]]]].
  set (s3 := upd_ser _ ser5) in Hacc.
  exists s3, b4, b5. split; [exact Hacc|].
  apply (client_level 200 (stream_begin_ignored ser2 serm b4 c2 (sv_next_stream s) k5 k6 (Sent HLb Hcs2 K5 Hid Es4)) Hss2 Es4 (user_control_body _ _ _ _) HP).
  intros a4 de4 HLd Hcs3. set (c3 := cupd_de _ de4). split; [reflexivity|].
  apply (client_level (lenN key + 200) (publish_start_delivered serm ser5 b5 c3 key (sv_next_stream s) k5 k7 (Sent HLd Hcs3 K5 Hid Es5) Hkey eq_refl)
           (Link_ser_ok _ _ HLd) Es5 (publish_start_body key Hkl) (N.le_refl _)).
  intros a5 de5 HLe Hcs4. split; [reflexivity|]. split; [reflexivity|].
  split; [apply publishing_key_spec; split; [exact Happ|]; exists (mode_of_type t); apply ChunkSpecProofs.lookup_insert_same|].
  split; [exact HLc|]. split; [exact HLe|]. split; [exact Hcs4|]. split; [exact Hs5|exact Hconn].
Qed.

Theorem play_exchange c s app k1 k2 k3 k4 k5 k6 t1 t2 t3 t4 t5 :
  Link (cl_ser c) (sv_de s) -> Link (sv_ser s) (cl_de c) -> ser_ok (cl_ser c) -> ser_ok (sv_ser s) ->
  cl_state c = Connected -> cl_next_tr c < 4294967296 -> sv_next_stream s < 4294967296 -> cc_buffer (cl_cfg c) < 4294967296 ->
  sv_connected s = true -> sv_app s = Some app -> utf8_valid key = true -> lenN key <= 65000 ->
  k1 < 4294967296 -> k2 < 4294967296 -> k3 < 4294967296 -> k6 < 4294967296 ->
  exists c1 b1 s1 r2,
    client_request_playback c key k1 = (c1, COk [CPacket b1 false]) /\
    server_handle_input s b1 k2 = (s1, ROk r2) /\ events r2 = [] /\
  guard (sv_ack s) b1 (sv_ack s1) (
  exists b2 c2 r3, r2 = [SPacket b2 false] /\
    client_handle_input c1 b2 k3 = (c2, COk r3) /\ cevents r3 = [] /\
  guard (cl_ack c1) b2 (cl_ack c2) (
  exists b3 b4 s2 r4, r3 = [CPacket b3 false; CPacket b4 false] /\
    server_handle_input s1 b3 k4 = (s2, ROk r4) /\ events r4 = [] /\
  guard (sv_ack s1) b3 (sv_ack s2) (r4 = [] /\
  exists s3 r5, server_handle_input s2 b4 k5 = (s3, ROk r5) /\
    events r5 = [EvPlayRequested (sv_next_req s) app key LiveOrRecorded None false (sv_next_stream s)] /\
  guard (sv_ack s2) b4 (sv_ack s3) (
  r5 = [SEvent (EvPlayRequested (sv_next_req s) app key LiveOrRecorded None false (sv_next_stream s))] /\
  exists s4 p1 p2 p3 p4 p5,
    server_accept s3 (sv_next_req s) k6 = (s4, ROk [SPacket p1 false; SPacket p2 false; SPacket p3 false; SPacket p4 false; SPacket p5 false]) /\
  exists c3 q1, client_handle_input c2 p1 t1 = (c3, COk q1) /\ cevents q1 = [CUnhandleableStatus (str "NetStream.Play.Reset")] /\
  guard (cl_ack c2) p1 (cl_ack c3) (q1 = [CEvent (CUnhandleableStatus (str "NetStream.Play.Reset"))] /\
  exists c4 q2, client_handle_input c3 p2 t2 = (c4, COk q2) /\ cevents q2 = [] /\
  guard (cl_ack c3) p2 (cl_ack c4) (q2 = [] /\
  exists c5 q3, client_handle_input c4 p3 t3 = (c5, COk q3) /\ cevents q3 = [CPlaybackAccepted] /\
  guard (cl_ack c4) p3 (cl_ack c5) (q3 = [CEvent CPlaybackAccepted] /\
  exists c6 q4, client_handle_input c5 p4 t4 = (c6, COk q4) /\ cevents q4 = [] /\
  guard (cl_ack c5) p4 (cl_ack c6) (q4 = [] /\
  exists c7 q5, client_handle_input c6 p5 t5 = (c7, COk q5) /\ cevents q5 = [] /\
  guard (cl_ack c6) p5 (cl_ack c7) (q5 = [] /\
  cl_state c7 = Playing /\ playing_on c7 (sv_next_stream s) /\
  lookup (sv_next_stream s) (sv_streams s4) = Some (StPlaying key) /\ sv_app s4 = Some app /\ sv_connected s4 = true /\
  Link (cl_ser c7) (sv_de s4) /\ Link (sv_ser s4) (cl_de c7) /\ ser_ok (cl_ser c7) /\ ser_ok (sv_ser s4)))))))))).
Proof.
  intros HL1 HL2 Hcs Hss Hst Htr Hid Hbuf Hconn Happ Hkey Hkl K1 K2 K3 K6.
  assert (HP : 17 * 200 + 16 <= packet_max key) by (unfold packet_max; lia).
  destruct (create_stream_delivered c s (PurposePlay key) k1 k2 HL1 Hss Hst Htr K1)
    as [b1 [ser1 [b2 [ser2 [Es1 [Ereq [Hs1 [Es2 D1]]]]]]]].
  set (c1 := cupd_ser _ ser1) in Ereq.
  exists c1, b1. apply with_fact; [exact Ereq|].
  apply (server_level 200 D1 Hcs Es1 (create_cmd_body _) HP). intros a1 de1 HLa Hss1. set (s1 := upd_de _ de1).
  destruct (create_result_play (sv_ser s) ser2 b2 c1 (cl_next_tr c) (sv_next_stream s) key k2 k3 (Sent (sid := 0) HL2 Hs1 K2 ltac:(lia) Es2) Htr Hid ltac:(lia)
              (ChunkSpecProofs.lookup_insert_same _ _ _)) as [b3 [serm [b4 [ser4 [Es3 [Es4 D2]]]]]].
  exists b2. apply with_fact; [reflexivity|].
  apply (client_level 200 D2 Hss Es2 (create_reply_body _ _) HP). intros a2 de2 HLb Hcs2. set (c2 := cupd_de _ de2).
  exists b3, b4. apply with_fact; [reflexivity|].
  apply (server_level 200 (buffer_length_ignored ser1 serm b3 s1 (sv_next_stream s) (cc_buffer (cl_cfg c)) k3 k4 (Sent (sid := 0) HLa Hss1 K3 ltac:(lia) Es3) Hid Hbuf)
           Hs1 Es3 (user_control_body _ _ _ _) HP).
  intros a3 de3 HLc Hss2. set (s2 := upd_de _ de3). split; [reflexivity|].
  apply (server_level (lenN key + 200) (play_request_delivered serm ser4 b4 s2 key (sv_next_stream s) app k3 k5 (Sent HLc Hss2 K3 Hid Es4) Hkey Hconn Happ)
           (Link_ser_ok _ _ HLc) Es4 (play_cmd_body key ltac:(lia)) (N.le_refl _)).
  intros a4 de4 HLd Hss3. set (s3 := upd_de _ de4). split; [reflexivity|].
  destruct (play_accepted s3 (sv_next_req s) key (sv_next_stream s) StCreated k6 Hss3 Hkl
              (ChunkSpecProofs.lookup_insert_same _ _ _) (ChunkSpecProofs.lookup_insert_same _ _ _))
    as [p1 [e1 [p2 [e2 [p3 [e3 [p4 [e4 [p5 [e5 [N1 [N2 [N3 [N4 [N5 [Hs5 Hacc]]]]]]]]]]]]]]]].
  set (s4 := upd_ser _ e5) in Hacc.
  exists s4, p1, p2, p3, p4, p5. split; [exact Hacc|].
  apply (client_level 200 (play_reset_delivered ser2 e1 p1 c2 (sv_next_stream s) k6 t1 (Sent HLb Hcs2 K6 Hid N1)) Hss3 N1 play_reset_body HP).
  intros x3 d3 HL3 Hcs3. set (c3 := cupd_de _ d3). split; [reflexivity|].
  apply (client_level 200 (stream_begin_ignored e1 e2 p2 c3 (sv_next_stream s) k6 t2 (Sent HL3 Hcs3 K6 Hid N2))
           (Link_ser_ok _ _ HL3) N2 (user_control_body _ _ _ _) HP).
  intros x4 d4 HL4 Hcs4. set (c4 := cupd_de _ d4). split; [reflexivity|].
  apply (client_level (lenN key + 200) (play_start_delivered e2 e3 p3 c4 key (sv_next_stream s) k6 t3 (Sent HL4 Hcs4 K6 Hid N3) Hkey eq_refl)
           (Link_ser_ok _ _ HL4) N3 (play_start_body key Hkl) (N.le_refl _)).
  intros x5 d5 HL5 Hcs5. set (c5 := cupd_de _ d5). split; [reflexivity|].
  apply (client_level 200 (data_ignored e3 e4 p4 c5 sample_access (sv_next_stream s) k6 t4 (or_introl eq_refl) (Sent HL5 Hcs5 K6 Hid N4))
           (Link_ser_ok _ _ HL5) N4 sample_access_body HP).
  intros x6 d6 HL6 Hcs6. set (c6 := cupd_de _ d6). split; [reflexivity|].
  apply (client_level 200 (data_ignored e4 e5 p5 c6 data_start (sv_next_stream s) k6 t5 (or_intror eq_refl) (Sent HL6 Hcs6 K6 Hid N5))
           (Link_ser_ok _ _ HL6) N5 data_start_body HP).
  intros x7 d7 HL7 Hcs7. split; [reflexivity|].
  split; [reflexivity|]. split; [split; [right; reflexivity|reflexivity]|].
  split; [apply ChunkSpecProofs.lookup_insert_same|]. split; [exact Happ|]. split; [exact Hconn|].
  split; [exact HLd|]. split; [exact HL7|]. split; [exact Hcs7|exact Hs5].
Qed.
End Exchange.

(* Each call of the exchange succeeds and returns exactly the packets and events listed, as long as no acknowledgement fell due
   in the receiving calls before it (quiet; C17 decides exactly when one does - then one extra Acknowledgement packet precedes the
   results).  The exchange ends with the client Publishing on the stream the server created and registered under the
   application and the key: the state C02_publish_sequence starts from. *)
Theorem publish_completes c s app key t k1 k2 k3 k4 k5 k6 k7 :
  Link (cl_ser c) (sv_de s) -> Link (sv_ser s) (cl_de c) -> ser_ok (cl_ser c) -> ser_ok (sv_ser s) ->
  cl_state c = Connected -> cl_next_tr c < 4294967296 -> sv_next_stream s < 4294967296 ->
  sv_connected s = true -> sv_app s = Some app -> utf8_valid key = true -> lenN key <= 65000 ->
  k1 < 4294967296 -> k2 < 4294967296 -> k3 < 4294967296 -> k5 < 4294967296 ->
  exists c1 b1 s1 r2,
    client_request_publishing c key t k1 = (c1, COk [CPacket b1 false]) /\
    server_handle_input s b1 k2 = (s1, ROk r2) /\ events r2 = [] /\
  (quiet (sv_ack s) b1 ->
  exists b2 c2 r3, r2 = [SPacket b2 false] /\
    client_handle_input c1 b2 k3 = (c2, COk r3) /\ cevents r3 = [] /\
  (quiet (cl_ack c1) b2 ->
  exists b3 s2 r4, r3 = [CPacket b3 false] /\
    server_handle_input s1 b3 k4 = (s2, ROk r4) /\ events r4 = [EvPublishRequested (sv_next_req s) app key (mode_of_type t)] /\
  (quiet (sv_ack s1) b3 ->
  r4 = [SEvent (EvPublishRequested (sv_next_req s) app key (mode_of_type t))] /\
  exists s3 b4 b5, server_accept s2 (sv_next_req s) k5 = (s3, ROk [SPacket b4 false; SPacket b5 false]) /\
  exists c3 r6, client_handle_input c2 b4 k6 = (c3, COk r6) /\ cevents r6 = [] /\
  (quiet (cl_ack c2) b4 -> r6 = [] /\
  exists c4 r7, client_handle_input c3 b5 k7 = (c4, COk r7) /\ cevents r7 = [CPublishAccepted] /\
  (quiet (cl_ack c3) b5 -> r7 = [CEvent CPublishAccepted] /\
  publishing_stream c4 = Ok (sv_next_stream s) /\ publishing_key s3 (sv_next_stream s) = Some (app, key) /\
  Link (cl_ser c4) (sv_de s3) /\ Link (sv_ser s3) (cl_de c4) /\ ser_ok (cl_ser c4) /\ ser_ok (sv_ser s3) /\ sv_connected s3 = true))))).
Proof.
  exact (publish_exchange key (fun a b _ K => quiet a b -> K) (fun _ _ _ _ _ H => H) c s app t k1 k2 k3 k4 k5 k6 k7).
Qed.

(* If each side's announced window exceeds its outstanding count by a few packets' worth, no acknowledgement falls due and the
   exchange is exactly the one listed.  Sessions that have not been told a window (ack_window = None) satisfy the premise trivially.
   The factors count the packets each side reads: in publish the server 2 (createStream, publish) and the client 3 (_result,
   StreamBegin, the status); in play the server 3 (createStream, buffer length, play) and the client 6 (_result, the accept's five). *)
Theorem publish_completes_windows c s app key t k1 k2 k3 k4 k5 k6 k7 :
  Link (cl_ser c) (sv_de s) -> Link (sv_ser s) (cl_de c) -> ser_ok (cl_ser c) -> ser_ok (sv_ser s) ->
  cl_state c = Connected -> cl_next_tr c < 4294967296 -> sv_next_stream s < 4294967296 ->
  sv_connected s = true -> sv_app s = Some app -> utf8_valid key = true -> lenN key <= 65000 ->
  k1 < 4294967296 -> k2 < 4294967296 -> k3 < 4294967296 -> k5 < 4294967296 ->
  (forall w, ack_window (sv_ack s) = Some w -> ack_since (sv_ack s) + 2 * (17 * (lenN key + 200) + 16) < w) ->
  (forall w, ack_window (cl_ack c) = Some w -> ack_since (cl_ack c) + 3 * (17 * (lenN key + 200) + 16) < w) ->
  exists c1 b1 s1 b2 c2 b3 s2 s3 b4 b5 c3 c4,
    client_request_publishing c key t k1 = (c1, COk [CPacket b1 false]) /\
    server_handle_input s b1 k2 = (s1, ROk [SPacket b2 false]) /\
    client_handle_input c1 b2 k3 = (c2, COk [CPacket b3 false]) /\
    server_handle_input s1 b3 k4 = (s2, ROk [SEvent (EvPublishRequested (sv_next_req s) app key (mode_of_type t))]) /\
    server_accept s2 (sv_next_req s) k5 = (s3, ROk [SPacket b4 false; SPacket b5 false]) /\
    client_handle_input c2 b4 k6 = (c3, COk []) /\
    client_handle_input c3 b5 k7 = (c4, COk [CEvent CPublishAccepted]) /\
    publishing_stream c4 = Ok (sv_next_stream s) /\ publishing_key s3 (sv_next_stream s) = Some (app, key) /\
    Link (cl_ser c4) (sv_de s3) /\ Link (sv_ser s3) (cl_de c4) /\ ser_ok (cl_ser c4) /\ ser_ok (sv_ser s3) /\ sv_connected s3 = true.
Proof.
  intros HL1 HL2 Hcs Hss Hst Htr Hid Hconn Happ Hkey Hkl K1 K2 K3 K5 HWs HWc.
  destruct (publish_exchange key (paying (packet_max key)) (paying_intro _) c s app t k1 k2 k3 k4 k5 k6 k7
              HL1 HL2 Hcs Hss Hst Htr Hid Hconn Happ Hkey Hkl K1 K2 K3 K5) as [c1 [b1 [s1 [r2 [E1 [E2 [_ H1]]]]]]].
  rewrite <- (request_keeps_counter _ _ _ _ _ E1) in HWc.
  destruct (H1 1 HWs) as [HWs1 [b2 [c2 [r3 [-> [E3 [_ H2]]]]]]].
  destruct (H2 2 HWc) as [HWc2 [b3 [s2 [r4 [-> [E4 [_ H3]]]]]]].
  destruct (H3 0 HWs1) as [_ [-> [s3 [b4 [b5 [E5 [c3 [r6 [E6 [_ H4]]]]]]]]]].
  destruct (H4 1 HWc2) as [HWc3 [-> [c4 [r7 [E7 [_ H5]]]]]].
  destruct (H5 0 HWc3) as [_ [-> Hfinal]].
  exists c1, b1, s1, b2, c2, b3, s2, s3, b4, b5, c3, c4.
  repeat (split; [assumption|]). exact Hfinal.
Qed.

Theorem play_completes c s app key k1 k2 k3 k4 k5 k6 t1 t2 t3 t4 t5 :
  Link (cl_ser c) (sv_de s) -> Link (sv_ser s) (cl_de c) -> ser_ok (cl_ser c) -> ser_ok (sv_ser s) ->
  cl_state c = Connected -> cl_next_tr c < 4294967296 -> sv_next_stream s < 4294967296 -> cc_buffer (cl_cfg c) < 4294967296 ->
  sv_connected s = true -> sv_app s = Some app -> utf8_valid key = true -> lenN key <= 65000 ->
  k1 < 4294967296 -> k2 < 4294967296 -> k3 < 4294967296 -> k6 < 4294967296 ->
  exists c1 b1 s1 r2,
    client_request_playback c key k1 = (c1, COk [CPacket b1 false]) /\
    server_handle_input s b1 k2 = (s1, ROk r2) /\ events r2 = [] /\
  (quiet (sv_ack s) b1 ->
  exists b2 c2 r3, r2 = [SPacket b2 false] /\
    client_handle_input c1 b2 k3 = (c2, COk r3) /\ cevents r3 = [] /\
  (quiet (cl_ack c1) b2 ->
  exists b3 b4 s2 r4, r3 = [CPacket b3 false; CPacket b4 false] /\
    server_handle_input s1 b3 k4 = (s2, ROk r4) /\ events r4 = [] /\
  (quiet (sv_ack s1) b3 -> r4 = [] /\
  exists s3 r5, server_handle_input s2 b4 k5 = (s3, ROk r5) /\
    events r5 = [EvPlayRequested (sv_next_req s) app key LiveOrRecorded None false (sv_next_stream s)] /\
  (quiet (sv_ack s2) b4 ->
  r5 = [SEvent (EvPlayRequested (sv_next_req s) app key LiveOrRecorded None false (sv_next_stream s))] /\
  exists s4 p1 p2 p3 p4 p5,
    server_accept s3 (sv_next_req s) k6 = (s4, ROk [SPacket p1 false; SPacket p2 false; SPacket p3 false; SPacket p4 false; SPacket p5 false]) /\
  exists c3 q1, client_handle_input c2 p1 t1 = (c3, COk q1) /\ cevents q1 = [CUnhandleableStatus (str "NetStream.Play.Reset")] /\
  (quiet (cl_ack c2) p1 -> q1 = [CEvent (CUnhandleableStatus (str "NetStream.Play.Reset"))] /\
  exists c4 q2, client_handle_input c3 p2 t2 = (c4, COk q2) /\ cevents q2 = [] /\
  (quiet (cl_ack c3) p2 -> q2 = [] /\
  exists c5 q3, client_handle_input c4 p3 t3 = (c5, COk q3) /\ cevents q3 = [CPlaybackAccepted] /\
  (quiet (cl_ack c4) p3 -> q3 = [CEvent CPlaybackAccepted] /\
  exists c6 q4, client_handle_input c5 p4 t4 = (c6, COk q4) /\ cevents q4 = [] /\
  (quiet (cl_ack c5) p4 -> q4 = [] /\
  exists c7 q5, client_handle_input c6 p5 t5 = (c7, COk q5) /\ cevents q5 = [] /\
  (quiet (cl_ack c6) p5 -> q5 = [] /\
  cl_state c7 = Playing /\ playing_on c7 (sv_next_stream s) /\
  lookup (sv_next_stream s) (sv_streams s4) = Some (StPlaying key) /\ sv_app s4 = Some app /\ sv_connected s4 = true /\
  Link (cl_ser c7) (sv_de s4) /\ Link (sv_ser s4) (cl_de c7) /\ ser_ok (cl_ser c7) /\ ser_ok (sv_ser s4)))))))))).
Proof.
  exact (play_exchange key (fun a b _ K => quiet a b -> K) (fun _ _ _ _ _ H => H) c s app k1 k2 k3 k4 k5 k6 t1 t2 t3 t4 t5).
Qed.

Theorem play_completes_windows c s app key k1 k2 k3 k4 k5 k6 t1 t2 t3 t4 t5 :
  Link (cl_ser c) (sv_de s) -> Link (sv_ser s) (cl_de c) -> ser_ok (cl_ser c) -> ser_ok (sv_ser s) ->
  cl_state c = Connected -> cl_next_tr c < 4294967296 -> sv_next_stream s < 4294967296 -> cc_buffer (cl_cfg c) < 4294967296 ->
  sv_connected s = true -> sv_app s = Some app -> utf8_valid key = true -> lenN key <= 65000 ->
  k1 < 4294967296 -> k2 < 4294967296 -> k3 < 4294967296 -> k6 < 4294967296 ->
  (forall w, ack_window (sv_ack s) = Some w -> ack_since (sv_ack s) + 3 * (17 * (lenN key + 200) + 16) < w) ->
  (forall w, ack_window (cl_ack c) = Some w -> ack_since (cl_ack c) + 6 * (17 * (lenN key + 200) + 16) < w) ->
  exists c1 b1 s1 b2 c2 b3 b4 s2 s3 s4 p1 p2 p3 p4 p5 c3 c4 c5 c6 c7,
    client_request_playback c key k1 = (c1, COk [CPacket b1 false]) /\
    server_handle_input s b1 k2 = (s1, ROk [SPacket b2 false]) /\
    client_handle_input c1 b2 k3 = (c2, COk [CPacket b3 false; CPacket b4 false]) /\
    server_handle_input s1 b3 k4 = (s2, ROk []) /\
    server_handle_input s2 b4 k5 = (s3, ROk [SEvent (EvPlayRequested (sv_next_req s) app key LiveOrRecorded None false (sv_next_stream s))]) /\
    server_accept s3 (sv_next_req s) k6 = (s4, ROk [SPacket p1 false; SPacket p2 false; SPacket p3 false; SPacket p4 false; SPacket p5 false]) /\
    client_handle_input c2 p1 t1 = (c3, COk [CEvent (CUnhandleableStatus (str "NetStream.Play.Reset"))]) /\
    client_handle_input c3 p2 t2 = (c4, COk []) /\
    client_handle_input c4 p3 t3 = (c5, COk [CEvent CPlaybackAccepted]) /\
    client_handle_input c5 p4 t4 = (c6, COk []) /\
    client_handle_input c6 p5 t5 = (c7, COk []) /\
    cl_state c7 = Playing /\ playing_on c7 (sv_next_stream s) /\
    lookup (sv_next_stream s) (sv_streams s4) = Some (StPlaying key) /\ sv_app s4 = Some app /\ sv_connected s4 = true /\
    Link (cl_ser c7) (sv_de s4) /\ Link (sv_ser s4) (cl_de c7) /\ ser_ok (cl_ser c7) /\ ser_ok (sv_ser s4).
Proof.
  intros HL1 HL2 Hcs Hss Hst Htr Hid Hbuf Hconn Happ Hkey Hkl K1 K2 K3 K6 HWs HWc.
  destruct (play_exchange key (paying (packet_max key)) (paying_intro _) c s app k1 k2 k3 k4 k5 k6 t1 t2 t3 t4 t5
              HL1 HL2 Hcs Hss Hst Htr Hid Hbuf Hconn Happ Hkey Hkl K1 K2 K3 K6) as [c1 [b1 [s1 [r2 [E1 [E2 [_ H1]]]]]]].
  rewrite <- (request_keeps_counter _ _ _ _ _ E1) in HWc.
  destruct (H1 2 HWs) as [HWs1 [b2 [c2 [r3 [-> [E3 [_ H2]]]]]]].
  destruct (H2 5 HWc) as [HWc2 [b3 [b4 [s2 [r4 [-> [E4 [_ H3]]]]]]]].
  destruct (H3 1 HWs1) as [HWs2 [-> [s3 [r5 [E5 [_ H4]]]]]].
  destruct (H4 0 HWs2) as [_ [-> [s4 [p1 [p2 [p3 [p4 [p5 [E6 [c3 [q1 [X1 [_ H5]]]]]]]]]]]]].
  destruct (H5 4 HWc2) as [HWc3 [-> [c4 [q2 [X2 [_ H6]]]]]].
  destruct (H6 3 HWc3) as [HWc4 [-> [c5 [q3 [X3 [_ H7]]]]]].
  destruct (H7 2 HWc4) as [HWc5 [-> [c6 [q4 [X4 [_ H8]]]]]].
  destruct (H8 1 HWc5) as [HWc6 [-> [c7 [q5 [X5 [_ H9]]]]]].
  destruct (H9 0 HWc6) as [_ [-> Hfinal]].
  exists c1, b1, s1, b2, c2, b3, b4, s2, s3, s4, p1, p2, p3, p4, p5, c3, c4, c5, c6, c7.
  repeat (split; [assumption|]). exact Hfinal.
Qed.
