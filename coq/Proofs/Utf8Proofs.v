(* well-formed UTF-8 stays well-formed when a final ASCII byte is removed (the server strips one trailing '/' of the application name) *)
From Coq Require Import ZArith Lia ZifyN ZifyBool ZifyNat Bool.
From RML Require Import Model.Base Model.Utf8.
Local Open Scope N_scope.

Lemma cont_ascii a : a < 128 -> cont a = false.
Proof. intros H. unfold cont, in_range. lia. Qed.

Lemma utf8_fuel_nil f : utf8_valid_fuel f [] = true.
Proof. destruct f; reflexivity. Qed.

(* the bytes after a lead byte b0 must be continuation bytes, which a is not: either they all lie in r0, and the
   question passes to what follows them, or both sides are false *)
Ltac after_lead IH Hc r0 :=
  destruct r0 as [|? [|? [|? ?]]]; cbn [List.app]; rewrite ?Hc, ?andb_false_r; try reflexivity;
  f_equal; match goal with |- _ = utf8_valid_fuel _ ?l => apply (IH l) end; cbn [List.length] in *; lia.

Lemma push_ascii a : a < 128 -> forall f l f',
  (length l <= f)%nat -> (length l + 1 <= f')%nat -> utf8_valid_fuel f' (l ++ [a]) = utf8_valid_fuel f l.
Proof.
  intros Ha. pose proof (cont_ascii a Ha) as Hc. apply N.ltb_lt in Ha.
  induction f as [|f IH]; intros l f' Hl Hl'; (destruct f' as [|f']; [cbn in Hl'; lia|]);
    (destruct l as [|b0 r0]; [cbn; rewrite Ha; apply utf8_fuel_nil|]); [cbn in Hl; lia|].
  cbn [List.app utf8_valid_fuel].
  destruct (b0 <? 128); [apply IH; cbn [List.length] in *; lia|].
  destruct (in_range 194 223 b0); [after_lead IH Hc r0|].
  destruct (b0 =? 224); [after_lead IH Hc r0|].
  destruct (in_range 225 236 b0 || in_range 238 239 b0); [after_lead IH Hc r0|].
  destruct (b0 =? 237); [after_lead IH Hc r0|].
  destruct (b0 =? 240); [after_lead IH Hc r0|].
  destruct (in_range 241 243 b0); [after_lead IH Hc r0|].
  destruct (b0 =? 244); [after_lead IH Hc r0|reflexivity].
Qed.

Theorem utf8_drop_last_ascii l a : a < 128 -> utf8_valid (l ++ [a]) = true -> utf8_valid l = true.
Proof.
  intros Ha H. unfold utf8_valid in *. rewrite <- (push_ascii a Ha (length l) l (length (l ++ [a]))); [exact H|lia|].
  rewrite app_length. cbn. lia.
Qed.
