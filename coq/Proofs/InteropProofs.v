(* C02: the two sessions' chunk layers stay linked.  Link ser de: the sender's serializer and the receiver's deserializer describe
   the same chunk-stream history (a state sd of the specification decoder, tied to the serializer by Sim, ChunkSerProofs, and to the
   deserializer by Rel, ChunkRefineProofs) and nothing is pending.  What one side writes the other reads as exactly that message,
   linked again; on top of it, media sent by a publishing client is raised by the server byte-exact under the application name and
   stream key, and likewise server to playing client. *)
From Coq Require Import Lia String.
From RML Require Import Model.Interop Model.Base Model.Chunk Model.ChunkSer Model.ChunkDe Model.Messages Model.SessionCommon
  Model.Server Model.Client Gen.Consts Spec.ChunkSpec Proofs.ChunkSerProofs Proofs.ChunkDeProofs Proofs.ChunkRefineProofs Proofs.ConfigProofs.
Local Open Scope N_scope.

Definition Link (ser : sstate) (de : dstate) : Prop := exists sd, Sim ser sd /\ Rel sd de /\ d_buf de = [].

Lemma Link_init : Link ser_init de_init.
Proof. exists sdec_init. split; [exact Sim_init|split; [exact Rel_init|reflexivity]]. Qed.

Lemma drains_extends s acc s' ms r : drains s acc s' ms r -> exists suffix, ms = acc ++ suffix.
Proof.
  induction 1 as [s s' acc Hg|s s' acc e Hg|s s1 s2 m acc s' ms r Hg Hd D IH|s s1 m acc e Hg Hd].
  - exists []. rewrite app_nil_r. reflexivity.
  - exists []. rewrite app_nil_r. reflexivity.
  - destruct IH as [suf ->]. exists (m :: suf). rewrite <- app_assoc. reflexivity.
  - exists [m]. reflexivity.
Qed.

(* One serializer operation, received whole.  step_sim gives the chunks the operation wrote and the specification decoder's run
   over them; idec_run turns that run into the deserializer's driving loop (drains) over the same bytes.  The three calls of the
   statement are read off that derivation: its message list only grows (drains_extends) and ends as [op_msg op], so it is one
   dr_msg step followed by dr_none. *)
Lemma link_op ser de op b ser' :
  Link ser de -> op_wf op -> ser_step ser op = Ok (b, ser') ->
  exists de1 de2 de3, get_next_message de b = (de1, DMsg (op_msg op)) /\ driver_apply de1 (op_msg op) = Ok de2 /\
                      get_next_message de2 [] = (de3, DNone) /\ Link ser' de3.
Proof.
  intros [sd [HSim [HRel Hbuf]]] Hwf Hstep.
  destruct (step_sim ser sd op b ser' HSim Hwf Hstep) as [cs [sd1 [sd2 [Hb [Hdo [Hac [HS2 _]]]]]]].
  pose proof (sdec_run_one cs sd sd1 (op_msg op) sd2 [] sd2 [] Hdo Hac eq_refl) as Hrun. rewrite app_nil_r in Hrun.
  destruct de as [max f cur stg buf prev part]. cbn [d_buf] in Hbuf. subst buf.
  assert (Hstg : stg = StCsid) by (destruct HRel as [H _]; exact H). subst stg.
  fold (mk max f cur StCsid [] prev part) in *.
  assert (HRel' : Rel sd (mk max f cur StCsid (concat (map emit_chunk cs)) prev part)).
  { destruct HRel as [R1 [R2 [R3 R4]]]. split; [reflexivity|split; [exact R2|split; [exact R3|exact R4]]]. }
  destruct (idec_run cs sd sd2 [op_msg op] max f cur prev part [] HRel' Hrun) as [dst' [D [HR3 Hb3]]].
  cbn [app] in D. rewrite <- Hb in D.
  assert (Hg : get_next_message (mk max f cur StCsid [] prev part) b = G (mk max f cur StCsid b prev part)).
  { rewrite gnm_G. reflexivity. }
  inversion D as [s0 s1 acc0 Hg0|s0 s1 acc0 e Hg0|s0 s1 s2 m acc0 s3 ms0 r0 Hg0 Hd0 D2|s0 s1 m acc0 e Hg0 Hd0]; subst.
  rewrite gnm_nil in Hg0. cbn [app] in D2.
  destruct (drains_extends _ _ _ _ _ D2) as [suf Hsuf]. destruct suf as [|x suf]; [|destruct suf; discriminate].
  injection Hsuf as <-.
  exists s1, s2, dst'. split; [rewrite Hg; exact Hg0|]. split; [exact Hd0|].
  inversion D2 as [t0 t1 acc1 Hg1|t0 t1 acc1 e Hg1|t0 t1 t2 m1 acc1 t3 ms1 r1 Hg1 Hd1 D3|t0 t1 m1 acc1 e Hg1 Hd1]; subst.
  - split; [exact Hg1|]. exists sd2. split; [exact HS2|split; [exact HR3|exact Hb3]].
  - destruct (drains_extends _ _ _ _ _ D3) as [suf Hsuf]. destruct suf; discriminate.
Qed.

Definition ser_ok (ser : sstate) : Prop := 1 <= s_max ser.

Lemma Link_ser_ok ser de : Link ser de -> ser_ok ser.
Proof. intros [sd [[_ [H _]] _]]. unfold ser_ok. lia. Qed.

(* the body of m encodes, in at most L bytes; up to the chunk layer's limit such a message is always sent *)
Definition body_le (m : rtmp_message) (L : N) : Prop := exists tid body, to_payload m = Ok (tid, body) /\ lenN body <= L.

Lemma send_fits ser m ts sid f d L :
  ser_ok ser -> body_le m L -> L <= 16777215 ->
  exists b ser', send_message ser m ts sid f d = Ok (b, ser') /\ ser_ok ser'.
Proof.
  intros Hs [tid [body [E Hl]]] HL. unfold send_message. rewrite E.
  destruct (serialize_refused_or_ok ser {| m_ts := ts; m_tid := tid; m_sid := sid; m_data := body |} f d Hs) as [_ Hok].
  destruct (Hok ltac:(cbn [m_data]; lia)) as [b [ser' [Es Hm]]]. rewrite Es. exists b, ser'. split; [reflexivity|]. unfold ser_ok in *. lia.
Qed.

Lemma link_serialized ser de p f d b ser' :
  Link ser de -> m_ts p < 4294967296 -> m_tid p < 256 -> m_tid p <> 1 -> m_sid p < 4294967296 ->
  ChunkSer.serialize ser p f d = Ok (b, ser') ->
  exists de1 de3, get_next_message de b = (de1, DMsg p) /\ get_next_message de1 [] = (de3, DNone) /\ Link ser' de3.
Proof.
  intros HL Hts Ht Ht1 Hsid Hs.
  destruct (serialize_refused_or_ok ser p f d (Link_ser_ok _ _ HL)) as [Hbig _].
  assert (Hlen : lenN (m_data p) <= 16777215).
  { destruct (16777215 <? lenN (m_data p)) eqn:E; [|lia]. rewrite (Hbig ltac:(lia)) in Hs. discriminate Hs. }
  destruct (link_op ser de (OpMsg p f d) b ser' HL) as [de1 [de2 [de3 [G1 [Hd [G2 HL2]]]]]].
  - split; [repeat split; assumption|exact Ht1].
  - exact Hs.
  - cbn [op_msg] in *. unfold driver_apply in Hd. replace (m_tid p =? 1) with false in Hd by lia. injection Hd as <-.
    exists de1, de3. repeat split; assumption.
Qed.

Lemma link_message ser de m force drop :
  Link ser de -> msg_wf m -> m_tid m <> 1 ->
  exists b ser' de1 de3,
    ChunkSer.serialize ser m force drop = Ok (b, ser') /\
    get_next_message de b = (de1, DMsg m) /\ get_next_message de1 [] = (de3, DNone) /\ Link ser' de3.
Proof.
  intros HL [W1 [W2 [W3 W4]]] Htid.
  destruct (serialize_refused_or_ok ser m force drop (Link_ser_ok _ _ HL)) as [_ Hok].
  destruct (Hok W4) as [b [ser' [Hser _]]].
  destruct (link_serialized ser de m force drop b ser' HL W1 W2 Htid W3 Hser) as [de1 [de3 H]].
  exists b, ser', de1, de3. split; [exact Hser|exact H].
Qed.

(* handle_input first counts the input; when the peer's window is reached it writes one Acknowledgement ahead of its results *)
Inductive prelude (ser : sstate) (a : ack_state) (len clock : N) : list bytes -> sstate -> Prop :=
| prelude_none : snd (ack_step a len) = None -> prelude ser a len clock [] ser
| prelude_ack n b ser' :
    snd (ack_step a len) = Some n -> send_message ser (MAcknowledgement n) clock 0 false false = Ok (b, ser') ->
    prelude ser a len clock [b] ser'.

Lemma ack_sent ser n clock : ser_ok ser ->
  exists b ser', send_message ser (MAcknowledgement n) clock 0 false false = Ok (b, ser') /\ ser_ok ser'.
Proof.
  intros Hs. apply (send_fits ser (MAcknowledgement n) clock 0 false false 4 Hs); [|lia].
  eexists. eexists. split; [reflexivity|apply N.le_refl].
Qed.

Lemma prelude_ser_ok ser a len clock bs ser' : ser_ok ser -> prelude ser a len clock bs ser' -> ser_ok ser'.
Proof.
  intros Hs [_|n b ser2 _ E]; [exact Hs|].
  destruct (ack_sent ser n clock Hs) as [b' [ser3 [E' Hs3]]]. rewrite E in E'. injection E' as _ <-. exact Hs3.
Qed.

Lemma prelude_quiet ser a len clock bs ser' : snd (ack_step a len) = None -> prelude ser a len clock bs ser' -> bs = [] /\ ser' = ser.
Proof. intros Hq [_|n b ser2 Hn _]; [split; reflexivity|]. rewrite Hq in Hn. discriminate Hn. Qed.

Definition events (rs : list sresult) : list sevent :=
  flat_map (fun r => match r with SEvent e => [e] | _ => [] end) rs.

Lemma events_packets bs rs : events (map (fun b => SPacket b false) bs ++ rs) = events rs.
Proof. induction bs as [|b bs IH]; [reflexivity|exact IH]. Qed.

Lemma h_loop_one fuel s b clock acc p de1 de2 de3 :
  get_next_message (sv_de s) b = (de1, DMsg p) ->
  sv_de (fst (h_message (upd_de s de1) p clock)) = de2 -> get_next_message de2 [] = (de3, DNone) ->
  h_loop (S (S fuel)) s b clock acc =
    (let '(s1, r) := h_message (upd_de s de1) p clock in
     match r with ROk rs => (upd_de s1 de3, ROk (acc ++ rs)) | _ => (s1, r) end).
Proof.
  intros G1 Hf G2. cbn [h_loop]. rewrite G1.
  destruct (h_message (upd_de s de1) p clock) as [s1 r]. cbn [fst] in Hf. destruct r as [rs|e|]; try reflexivity.
  rewrite Hf, G2. reflexivity.
Qed.

(* The receiving server: the acknowledgement prelude, then exactly the handler of the decoded message.  de2 is the deserializer
   as the handler leaves it (only Set Chunk Size touches it), whatever the prelude did to serializer and counter.  On this step,
   each with a client twin: server_reads_sent (ProtocolProofs) obtains p from the peer's send_message; server_receives
   (ProtocolFlow) hides what the prelude did; server_delivers (ProtocolFlow) also takes what the handler does with p. *)
Lemma server_reads s b clock p de1 de2 de3 :
  ser_ok (sv_ser s) ->
  get_next_message (sv_de s) b = (de1, DMsg p) ->
  (forall ser0 a0, sv_de (fst (h_message (upd_de (upd_ack (upd_ser s ser0) a0) de1) p clock)) = de2) ->
  get_next_message de2 [] = (de3, DNone) ->
  exists bs ser0, prelude (sv_ser s) (sv_ack s) (lenN b) clock bs ser0 /\
    server_handle_input s b clock =
      (let '(s1, r) := h_message (upd_de (upd_ack (upd_ser s ser0) (fst (ack_step (sv_ack s) (lenN b)))) de1) p clock in
       match r with ROk rs => (upd_de s1 de3, ROk (map (fun x => SPacket x false) bs ++ rs)) | _ => (s1, r) end).
Proof.
  intros Hser G1 Hframe G2. unfold server_handle_input.
  destruct (ack_step (sv_ack s) (lenN b)) as [a [n|]] eqn:Ea; cbn [fst].
  - destruct (ack_sent (sv_ser s) n clock Hser) as [bk [ser2 [Ek _]]]. rewrite Ek.
    exists [bk], ser2. split; [apply (prelude_ack _ _ _ _ n); [rewrite Ea; reflexivity|exact Ek]|].
    exact (h_loop_one _ (upd_ack (upd_ser s ser2) a) b clock _ p de1 de2 de3 G1 (Hframe ser2 a) G2).
  - exists [], (sv_ser s). split; [apply prelude_none; rewrite Ea; reflexivity|].
    exact (h_loop_one _ (upd_ack s a) b clock _ p de1 de2 de3 G1 (Hframe (sv_ser s) a) G2).
Qed.

Definition data_wf (data : bytes) : Prop := lenN data <= 16777215.

Definition media_msg (video : bool) (data : bytes) : rtmp_message := if video then MVideoData data else MAudioData data.
Definition media_tid (video : bool) : N := if video then 9 else 8.

Lemma to_payload_media video data : to_payload (media_msg video data) = Ok (media_tid video, data).
Proof. destruct video; reflexivity. Qed.

Lemma of_payload_media video data : of_payload (media_tid video) data = Ok (media_msg video data).
Proof. destruct video; reflexivity. Qed.

Lemma media_wf video data ts sid : ts < 4294967296 -> sid < 4294967296 -> data_wf data ->
  msg_wf {| m_ts := ts; m_tid := media_tid video; m_sid := sid; m_data := data |} /\ media_tid video <> 1.
Proof. intros Hts Hsid Hd. unfold msg_wf. cbn [m_ts m_tid m_sid m_data]. destruct video; cbn [media_tid]; repeat split; (assumption || lia). Qed.

Definition media_event (video : bool) (app key data : bytes) (ts : N) : sevent :=
  if video then EvVideo app key data ts else EvAudio app key data ts.

Lemma h_message_media s video data sid ts clock app key :
  sv_connected s = true -> publishing_key s sid = Some (app, key) ->
  h_message s {| m_ts := ts; m_tid := media_tid video; m_sid := sid; m_data := data |} clock =
  (s, ROk [SEvent (media_event video app key data ts)]).
Proof.
  intros Hc Hk. unfold h_message. cbn [m_tid m_data m_sid m_ts]. rewrite of_payload_media.
  destruct video; cbn [media_msg]; unfold h_media; rewrite Hc; cbn [negb]; rewrite Hk; reflexivity.
Qed.

(* C02, publishing direction, one item: the client's publish_* call always yields a packet, and the server - given that packet
   in one call - raises exactly the media event with the same bytes and timestamp under the application name and stream key;
   the premises hold again afterwards *)
Theorem publish_media_delivered c s video data ts drop clock sid app key :
  Link (cl_ser c) (sv_de s) -> ser_ok (sv_ser s) ->
  publishing_stream c = Ok sid -> sid < 4294967296 -> ts < 4294967296 -> data_wf data ->
  sv_connected s = true -> publishing_key s sid = Some (app, key) ->
  exists b c' s' rs,
    client_publish_media video c data ts drop = (c', COk [CPacket b drop]) /\
    server_handle_input s b clock = (s', ROk rs) /\
    events rs = [media_event video app key data ts] /\
    Link (cl_ser c') (sv_de s') /\ ser_ok (sv_ser s') /\ publishing_stream c' = Ok sid /\
    sv_connected s' = true /\ publishing_key s' sid = Some (app, key).
Proof.
  intros HL Hser Hps Hsid Hts Hlen Hc Hk.
  destruct (media_wf video data ts sid Hts Hsid Hlen) as [Hwf Htid].
  set (p := {| m_ts := ts; m_tid := media_tid video; m_sid := sid; m_data := data |}) in *.
  destruct (link_message (cl_ser c) (sv_de s) p false drop HL Hwf Htid) as [b [ser' [de1 [de3 [Hs [G1 [G2 HL2]]]]]]].
  assert (Hm : forall ser0 a0, h_message (upd_de (upd_ack (upd_ser s ser0) a0) de1) p clock =
                 (upd_de (upd_ack (upd_ser s ser0) a0) de1, ROk [SEvent (media_event video app key data ts)]))
    by (intros ser0 a0; apply h_message_media; [exact Hc|exact Hk]).
  destruct (server_reads s b clock p de1 de1 de3 Hser G1 ltac:(intros; rewrite Hm; reflexivity) G2) as [bs [ser0 [Hp E]]].
  rewrite Hm in E.
  exists b, (cupd_ser c ser'). eexists. eexists.
  split.
  - unfold client_publish_media. rewrite Hps. unfold cone_packet, csending, send_message.
    change (if video then MVideoData data else MAudioData data) with (media_msg video data).
    rewrite to_payload_media. fold p. rewrite Hs. reflexivity.
  - split; [exact E|]. split; [apply events_packets|]. split; [exact HL2|]. split; [exact (prelude_ser_ok _ _ _ _ _ _ Hser Hp)|].
    split; [exact Hps|]. split; [exact Hc|exact Hk].
Qed.

Definition cevents (rs : list cresult) : list cevent :=
  flat_map (fun r => match r with CEvent e => [e] | _ => [] end) rs.

Lemma cevents_packets bs rs : cevents (map (fun b => CPacket b false) bs ++ rs) = cevents rs.
Proof. induction bs as [|b bs IH]; [reflexivity|exact IH]. Qed.

Lemma ch_loop_one fuel c b clock acc p de1 de2 de3 :
  get_next_message (cl_de c) b = (de1, DMsg p) ->
  cl_de (fst (ch_message (cupd_de c de1) p clock)) = de2 -> get_next_message de2 [] = (de3, DNone) ->
  ch_loop (S (S fuel)) c b clock acc =
    (let '(c1, r) := ch_message (cupd_de c de1) p clock in
     match r with COk rs => (cupd_de c1 de3, COk (acc ++ rs)) | _ => (c1, r) end).
Proof.
  intros G1 Hf G2. cbn [ch_loop]. rewrite G1.
  destruct (ch_message (cupd_de c de1) p clock) as [c1 r]. cbn [fst] in Hf. destruct r as [rs|e|]; try reflexivity.
  rewrite Hf, G2. reflexivity.
Qed.

Lemma client_reads c b clock p de1 de2 de3 :
  ser_ok (cl_ser c) ->
  get_next_message (cl_de c) b = (de1, DMsg p) ->
  (forall ser0 a0, cl_de (fst (ch_message (cupd_de (cupd_ack (cupd_ser c ser0) a0) de1) p clock)) = de2) ->
  get_next_message de2 [] = (de3, DNone) ->
  exists bs ser0, prelude (cl_ser c) (cl_ack c) (lenN b) clock bs ser0 /\
    client_handle_input c b clock =
      (let '(c1, r) := ch_message (cupd_de (cupd_ack (cupd_ser c ser0) (fst (ack_step (cl_ack c) (lenN b)))) de1) p clock in
       match r with COk rs => (cupd_de c1 de3, COk (map (fun x => CPacket x false) bs ++ rs)) | _ => (c1, r) end).
Proof.
  intros Hser G1 Hframe G2. unfold client_handle_input.
  destruct (ack_step (cl_ack c) (lenN b)) as [a [n|]] eqn:Ea; cbn [fst].
  - destruct (ack_sent (cl_ser c) n clock Hser) as [bk [ser2 [Ek _]]]. rewrite Ek.
    exists [bk], ser2. split; [apply (prelude_ack _ _ _ _ n); [rewrite Ea; reflexivity|exact Ek]|].
    exact (ch_loop_one _ (cupd_ack (cupd_ser c ser2) a) b clock _ p de1 de2 de3 G1 (Hframe ser2 a) G2).
  - exists [], (cl_ser c). split; [apply prelude_none; rewrite Ea; reflexivity|].
    exact (ch_loop_one _ (cupd_ack c a) b clock _ p de1 de2 de3 G1 (Hframe (cl_ser c) a) G2).
Qed.

Definition cmedia_event (video : bool) (data : bytes) (ts : N) : cevent := if video then CVideo ts data else CAudio ts data.

Definition playing_on (c : client) (sid : N) : Prop :=
  (cl_state c = PlayRequested \/ cl_state c = Playing) /\ cl_stream c = Some sid.

Lemma ch_message_media c p video data sid ts clock :
  of_payload (m_tid p) (m_data p) = Ok (media_msg video data) -> m_sid p = sid -> m_ts p = ts -> playing_on c sid ->
  ch_message c p clock = (c, COk [CEvent (cmedia_event video data ts)]).
Proof.
  intros Hof <- <- [Hst Hsid]. unfold ch_message. rewrite Hof.
  destruct video; cbn [media_msg]; unfold ch_media; rewrite Hsid, N.eqb_refl; destruct Hst as [-> | ->]; reflexivity.
Qed.

Definition server_send_media (video : bool) (s : server) (sid : N) (data : bytes) (ts : N) (drop : bool) : call :=
  if video then server_send_video s sid data ts drop else server_send_audio s sid data ts drop.

(* C02, playing direction, one item *)
Theorem play_media_delivered s c video data ts drop clock sid :
  Link (sv_ser s) (cl_de c) -> ser_ok (cl_ser c) ->
  playing_on c sid -> sid < 4294967296 -> ts < 4294967296 -> data_wf data ->
  exists b s' c' rs,
    server_send_media video s sid data ts drop = (s', ROk [SPacket b drop]) /\
    client_handle_input c b clock = (c', COk rs) /\
    cevents rs = [cmedia_event video data ts] /\
    Link (sv_ser s') (cl_de c') /\ ser_ok (cl_ser c') /\ playing_on c' sid.
Proof.
  intros HL Hser Hp Hsid Hts Hlen.
  destruct (media_wf video data ts sid Hts Hsid Hlen) as [Hwf Htid].
  set (p := {| m_ts := ts; m_tid := media_tid video; m_sid := sid; m_data := data |}) in *.
  destruct (link_message (sv_ser s) (cl_de c) p false drop HL Hwf Htid) as [b [ser' [de1 [de3 [Hs [G1 [G2 HL2]]]]]]].
  assert (Hm : forall ser0 a0, ch_message (cupd_de (cupd_ack (cupd_ser c ser0) a0) de1) p clock =
                 (cupd_de (cupd_ack (cupd_ser c ser0) a0) de1, COk [CEvent (cmedia_event video data ts)]))
    by (intros ser0 a0; apply (ch_message_media _ p video data sid ts); [apply of_payload_media|reflexivity|reflexivity|exact Hp]).
  destruct (client_reads c b clock p de1 de1 de3 Hser G1 ltac:(intros; rewrite Hm; reflexivity) G2) as [bs [ser0 [Hpre E]]].
  rewrite Hm in E.
  exists b, (upd_ser s ser'). eexists. eexists.
  split.
  - unfold server_send_media, server_send_video, server_send_audio, one_packet, sending, send_message. unfold p in Hs.
    destruct video;
      [change (to_payload (MVideoData data)) with (to_payload (media_msg true data))
      |change (to_payload (MAudioData data)) with (to_payload (media_msg false data))];
      rewrite to_payload_media, Hs; reflexivity.
  - split; [exact E|]. split; [apply cevents_packets|]. split; [exact HL2|]. split; [exact (prelude_ser_ok _ _ _ _ _ _ Hser Hpre)|exact Hp].
Qed.

Inductive item := Item (video : bool) (data : bytes) (ts : N) (drop : bool).
Definition item_wf (i : item) : Prop := match i with Item _ data ts _ => ts < 4294967296 /\ data_wf data end.

Fixpoint publish_run (c : client) (s : server) (items : list item) (clock : N) : option (client * server * list sevent) :=
  match items with
  | [] => Some (c, s, [])
  | Item video data ts drop :: r =>
    match client_publish_media video c data ts drop with
    | (c', COk [CPacket b _]) =>
      match server_handle_input s b clock with
      | (s', ROk rs) => match publish_run c' s' r clock with Some (c2, s2, evs) => Some (c2, s2, events rs ++ evs) | None => None end
      | _ => None
      end
    | _ => None
    end
  end.

Theorem publish_sequence_delivered items : forall c s clock sid app key,
  Link (cl_ser c) (sv_de s) -> ser_ok (sv_ser s) -> publishing_stream c = Ok sid -> sid < 4294967296 ->
  sv_connected s = true -> publishing_key s sid = Some (app, key) -> Forall item_wf items ->
  exists c' s', publish_run c s items clock =
    Some (c', s', map (fun i => match i with Item video data ts _ => media_event video app key data ts end) items).
Proof.
  induction items as [|[video data ts drop] r IH]; intros c s clock sid app key HL Hser Hps Hsid Hc Hk Hwf.
  - exists c, s. reflexivity.
  - inversion Hwf as [|? ? Hi Hr]; subst. cbn [item_wf] in Hi. destruct Hi as [Hts Hd].
    destruct (publish_media_delivered c s video data ts drop clock sid app key HL Hser Hps Hsid Hts Hd Hc Hk)
      as [b [c1 [s1 [rs [E1 [E2 [Hev [HL1 [Hser1 [Hps1 [Hc1 Hk1]]]]]]]]]]].
    destruct (IH c1 s1 clock sid app key HL1 Hser1 Hps1 Hsid Hc1 Hk1 Hr) as [c2 [s2 E3]].
    exists c2, s2. cbn [publish_run map]. rewrite E1, E2, E3, Hev. reflexivity.
Qed.

Fixpoint play_run (s : server) (c : client) (sid : N) (items : list item) (clock : N) : option (server * client * list cevent) :=
  match items with
  | [] => Some (s, c, [])
  | Item video data ts drop :: r =>
    match server_send_media video s sid data ts drop with
    | (s', ROk [SPacket b _]) =>
      match client_handle_input c b clock with
      | (c', COk rs) => match play_run s' c' sid r clock with Some (s2, c2, evs) => Some (s2, c2, cevents rs ++ evs) | None => None end
      | _ => None
      end
    | _ => None
    end
  end.

Theorem play_sequence_delivered items : forall s c clock sid,
  Link (sv_ser s) (cl_de c) -> ser_ok (cl_ser c) -> playing_on c sid -> sid < 4294967296 -> Forall item_wf items ->
  exists s' c', play_run s c sid items clock =
    Some (s', c', map (fun i => match i with Item video data ts _ => cmedia_event video data ts end) items).
Proof.
  induction items as [|[video data ts drop] r IH]; intros s c clock sid HL Hser Hp Hsid Hwf.
  - exists s, c. reflexivity.
  - inversion Hwf as [|? ? Hi Hr]; subst. cbn [item_wf] in Hi. destruct Hi as [Hts Hd].
    destruct (play_media_delivered s c video data ts drop clock sid HL Hser Hp Hsid Hts Hd)
      as [b [s1 [c1 [rs [E1 [E2 [Hev [HL1 [Hser1 Hp1]]]]]]]]].
    destruct (IH s1 c1 clock sid HL1 Hser1 Hp1 Hsid Hr) as [s2 [c2 E3]].
    exists s2, c2. cbn [play_run map]. rewrite E1, E2, E3, Hev. reflexivity.
Qed.

Definition server_events_of (ts : list (list trace)) : list sevent :=
  flat_map (flat_map (fun t => match t with TServerIn (ROk rs) | TAccept (ROk rs) => events rs | _ => [] end)) ts.
Definition client_events_of (ts : list (list trace)) : list cevent :=
  flat_map (flat_map (fun t => match t with TClientIn (COk rs) | TClientApi (COk rs) => cevents rs | _ => [] end)) ts.
Definition is_media_or_lifecycle (e : sevent) : bool :=
  match e with EvAcknowledgement _ | EvPingResponse _ => false | _ => true end.

Definition ex_ccfg : cconfig := {| cc_flash := str "WIN"; cc_buffer := 1000; cc_window := 2500000; cc_chunk := 3; cc_tcurl := None |}.
Definition ex_scfg : config := {| cfg_fms := str "FMS"; cfg_chunk := 2; cfg_bandwidth := 2500000; cfg_window := 5000; cfg_bwdone := false |}.
Definition ex_publish_ops : list iop :=
  [ IConnect (str "live"); IFlush [7; 3]; IPublish (str "key") TLive; IFlush [5];
    ICMedia true [1; 2; 3; 4; 5] 10 false; ICMedia false [] 4294967295 true; IDeliver true 4; ICMedia true [9] 0 false; IFlush [1];
    IStopPub; IFlush [4096] ].
Definition ex_play_ops : list iop :=
  [ IConnect (str "live"); IFlush [4096]; IPlay (str "key"); IFlush [1];
    ISMedia true [1; 2; 3; 4; 5] 10 false; ISMedia false [7; 7] 16777215 true; IFlush [2; 9];
    IStopPlay; IFlush [3] ].

Definition ex_run (ops : list iop) : list (list trace) :=
  match world_new ex_ccfg ex_scfg 5 with
  | (Some w, _) => snd (run w ops)
  | _ => []
  end.

(* connect, publish with 3-byte client chunks and 2-byte server chunks, byte-wise and fragmented delivery: every item arrives
   once, in order, byte-exact, under application "live" and key "key"; stopping raises the finished event *)
Example scenario_publish :
  filter is_media_or_lifecycle (server_events_of (ex_run ex_publish_ops)) =
  [ EvConnectionRequested 0 (str "live");
    EvPublishRequested 1 (str "live") (str "key") PLive;
    EvVideo (str "live") (str "key") [1; 2; 3; 4; 5] 10;
    EvAudio (str "live") (str "key") [] 4294967295;
    EvVideo (str "live") (str "key") [9] 0;
    EvPublishFinished (str "live") (str "key") ] /\
  filter (fun e => match e with CConnectionAccepted | CPublishAccepted => true | _ => false end)
         (client_events_of (ex_run ex_publish_ops)) = [CConnectionAccepted; CPublishAccepted].
Proof. vm_compute. split; reflexivity. Qed.

Example scenario_play :
  filter (fun e => match e with CVideo _ _ | CAudio _ _ | CPlaybackAccepted | CConnectionAccepted => true | _ => false end)
         (client_events_of (ex_run ex_play_ops)) =
  [ CConnectionAccepted; CPlaybackAccepted; CVideo 10 [1; 2; 3; 4; 5]; CAudio 16777215 [7; 7] ] /\
  filter (fun e => match e with EvPlayFinished _ _ => true | _ => false end) (server_events_of (ex_run ex_play_ops)) =
  [ EvPlayFinished (str "live") (str "key") ].
Proof. vm_compute. split; reflexivity. Qed.
