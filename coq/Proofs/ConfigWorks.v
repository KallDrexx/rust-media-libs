(* C19, last clause: every ACCEPTED configuration yields a working session.  For every server configuration whose chunk size the
   serializer accepts (1 .. 2^31-1; any window, bandwidth, version string, either setting of the onBWDone flag) and every client
   configuration with an accepted chunk size, two freshly created sessions complete the connect exchange: composition of
   sessions_start and connect_completes_decided. *)
From Coq Require Import Lia String.
From RML Require Import Model.Base Model.Utf8 Model.ChunkSer Model.SessionCommon
  Model.Server Model.Client Proofs.InteropProofs Proofs.ProtocolProofs Proofs.ProtocolStart.
Local Open Scope N_scope.

Definition cconfig_ok (ccfg : cconfig) (app : bytes) : Prop :=
  1 <= cc_chunk ccfg <= 2147483647 /\
  utf8_valid app = true /\ lenN app <= 65000 /\
  utf8_valid (cc_flash ccfg) = true /\ lenN (cc_flash ccfg) <= 65535 /\
  (forall u, cc_tcurl ccfg = Some u -> utf8_valid u = true /\ lenN u <= 65535).

Definition sconfig_ok (cfg : config) : Prop :=
  1 <= cfg_chunk cfg <= 2147483647 /\ cfg_window cfg < 4294967296 /\ cfg_bandwidth cfg < 4294967296 /\
  utf8_valid (cfg_fms cfg) = true /\ lenN (cfg_fms cfg) <= 65535.

Theorem accepted_configs_connect cfg ccfg app clock k rclock sclock aclock cclock :
  sconfig_ok cfg -> cconfig_ok ccfg app ->
  clock < 4294967296 -> rclock < 4294967296 -> aclock < 4294967296 -> cclock < 4294967296 ->
  exists s0 rs c0,
    server_new cfg clock = (s0, ROk rs) /\ events rs = [] /\
    cdeliver (client_new ccfg) (spackets rs) k = Some c0 /\ cl_state c0 = Disconnected /\
    (cquiet (client_new ccfg) (spackets rs) k ->
     exists b1 c1 s1 b2 s2 c2 rs2 pre w1 w2,
       client_request_connection c0 app rclock = (c1, COk [CPacket b1 false]) /\
       server_handle_input s0 b1 sclock = (s1, ROk [SEvent (EvConnectionRequested 0 (strip_slash app))]) /\
       server_accept s1 0 aclock = (s2, ROk [SPacket b2 false]) /\
       client_handle_input c1 b2 cclock = (c2, COk rs2) /\
       rs2 = pre ++ [CPacket w1 false; CEvent CConnectionAccepted; CPacket w2 false] /\ cevents pre = [] /\
       cl_state c2 = Connected /\ cl_app c2 = Some app /\
       sv_connected s2 = true /\ sv_app s2 = Some (strip_slash app) /\
       Link (sv_ser s2) (cl_de c2) /\ s_max (cl_ser c2) = cc_chunk ccfg).
Proof.
  intros [Hc [Hw [Hb [Hfu Hfl]]]] [Hcc [Hau [Hal [Hvu [Hvl Hturl]]]]] Hclk Hrclk Haclk Hcclk.
  destruct (sessions_start cfg ccfg clock k Hc Hw Hb Hclk)
    as [s0 [rs [c0 [Hnew [Hev [Hd [Hst [Htrs [Hntr [Hcfg [Hstream [HL2 [Hcs [Hss [Hwin [Hconn [Hreq [Hns [Hfms HL1]]]]]]]]]]]]]]]]]]].
  exists s0, rs, c0. split; [exact Hnew|]. split; [exact Hev|]. split; [exact Hd|]. split; [exact Hst|].
  intros Q. specialize (HL1 Q).
  assert (Hstr : strings_ok c0 app).
  { unfold strings_ok. rewrite Hcfg, Hntr. split; [exact Hau|]. split; [exact Hvu|]. split; [|lia].
    intros u Eu. exact (proj1 (Hturl u Eu)). }
  assert (Hsz : sizes_ok c0 app).
  { unfold sizes_ok. rewrite Hcfg. split; [exact Hal|]. split; [exact Hvl|]. intros u Eu. exact (proj2 (Hturl u Eu)). }
  destruct (connect_completes_decided c0 s0 app rclock sclock aclock cclock HL1 HL2 Hcs Hss Hst Hstr Hsz Hwin
              ltac:(rewrite Hfms; exact Hfu) ltac:(rewrite Hfms; exact Hfl) Hrclk Haclk Hcclk ltac:(rewrite Hcfg; exact Hcc))
    as [b1 [c1 [s1 [b2 [s2 [c2 [rs2 [pre [w1 [w2 H]]]]]]]]]].
  rewrite Hreq, Hcfg in H.
  exists b1, c1, s1, b2, s2, c2, rs2, pre, w1, w2. exact H.
Qed.

(* the premises are satisfiable, also at the extreme accepted chunk sizes 1 and 2^31-1 *)
Example accepted_configs_example :
  let cfg := {| cfg_fms := str "FMS/3,0,1,123"; cfg_chunk := 1; cfg_bandwidth := 0; cfg_window := 4294967295; cfg_bwdone := true |} in
  let ccfg := {| cc_flash := str "v"; cc_buffer := 1000; cc_window := 2500000; cc_chunk := 2147483647; cc_tcurl := Some (str "rtmp://h/live") |} in
  sconfig_ok cfg /\ cconfig_ok ccfg (str "live") /\
  match server_new cfg 0 with
  | (_, ROk rs) => cquiet (client_new ccfg) (spackets rs) 7
  | _ => False
  end.
Proof.
  split; [|split].
  - unfold sconfig_ok. cbn [cfg_chunk cfg_window cfg_bandwidth cfg_fms]. repeat split; try lia; vm_compute; try reflexivity; intro; discriminate.
  - unfold cconfig_ok. cbn [cc_chunk cc_flash cc_tcurl].
    split; [lia|]. split; [vm_compute; reflexivity|]. split; [vm_compute; intro; discriminate|].
    split; [vm_compute; reflexivity|]. split; [vm_compute; intro; discriminate|].
    intros u Eu. injection Eu as <-. split; [vm_compute; reflexivity|vm_compute; intro; discriminate].
  - vm_compute. repeat split.
Qed.
