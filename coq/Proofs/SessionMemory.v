(* C03, sessions: the bytes a session's deserializer holds (buffer + partial payloads) after an input call are at most what it held
   before plus the bytes of the call - handlers never add to it (SessionFrame: they leave the deserializer alone or only change its
   chunk size). *)
From Coq Require Import Lia List.
From RML Require Import Model.Base Model.Chunk Model.ChunkDe Model.Messages Model.SessionCommon Model.Server Model.Client
  Proofs.ChunkDeMemory Proofs.MessageLoop Proofs.SessionFrame Proofs.SessionPartition Proofs.ClientPartition.
Import ListNotations.
Local Open Scope nat_scope.

Lemma de_set_max_stored d n d' : de_set_max_chunk_size d n = Ok d' -> stored d' = stored d.
Proof. unfold de_set_max_chunk_size. destruct (_ || _)%bool; [discriminate|]. intros H. injection H as <-. reflexivity. Qed.

Lemma h_message_stored s p clock : stored (sv_de (fst (h_message s p clock))) = stored (sv_de s).
Proof.
  destruct (h_message_de s p clock) as [-> | [n E]]; [reflexivity|]. apply (de_set_max_stored _ _ _ E).
Qed.

Lemma gnm_stored d input d' r : get_next_message d input = (d', r) -> stored d' <= stored d + length input.
Proof. intros H. apply get_next_message_memory in H. lia. Qed.

Lemma h_loop_memory fuel s input clock acc :
  stored (sv_de (fst (h_loop fuel s input clock acc))) <= stored (sv_de s) + length input.
Proof.
  apply (run_measure _ _ _ VOk sv_de upd_de (fun _ _ => eq_refl) swire VPanic (sh clock) _ reply_of (fun f s i a => h_loop f s i clock a)
           (fun _ _ _ => eq_refl) (h_loop_S clock) stored gnm_stored).
  intros s0 p. rewrite sh_fst. apply h_message_stored.
Qed.

Theorem server_input_memory s input clock :
  stored (sv_de (fst (server_handle_input s input clock))) <= stored (sv_de s) + length input.
Proof.
  unfold server_handle_input. destruct (ack_step (sv_ack s) (lenN input)) as [a [n|]].
  - destruct (send_message (sv_ser s) (MAcknowledgement n) clock 0 false false) as [[b ser']|e|x|]; cbn [fst sv_de upd_ack]; try lia.
    apply (h_loop_memory _ (upd_ack (upd_ser s ser') a)).
  - apply (h_loop_memory _ (upd_ack s a)).
Qed.

Lemma ch_message_stored c p clock : stored (cl_de (fst (ch_message c p clock))) = stored (cl_de c).
Proof.
  destruct (ch_message_de c p clock) as [-> | [n E]]; [reflexivity|]. apply (de_set_max_stored _ _ _ E).
Qed.

Lemma ch_loop_memory fuel c input clock acc :
  stored (cl_de (fst (ch_loop fuel c input clock acc))) <= stored (cl_de c) + length input.
Proof.
  apply (run_measure _ _ _ CVOk cl_de cupd_de (fun _ _ => eq_refl) cwire CVPanic (clh clock) _ creply_of (fun f s i a => ch_loop f s i clock a)
           (fun _ _ _ => eq_refl) (ch_loop_S clock) stored gnm_stored).
  intros c0 p. rewrite clh_fst. apply ch_message_stored.
Qed.

Theorem client_input_memory c input clock :
  stored (cl_de (fst (client_handle_input c input clock))) <= stored (cl_de c) + length input.
Proof.
  unfold client_handle_input. destruct (ack_step (cl_ack c) (lenN input)) as [a [n|]].
  - destruct (send_message (cl_ser c) (MAcknowledgement n) clock 0 false false) as [[b ser']|e|x|]; cbn [fst cl_de cupd_ack]; try lia.
    apply (ch_loop_memory _ (cupd_ack (cupd_ser c ser') a)).
  - apply (ch_loop_memory _ (cupd_ack c a)).
Qed.
