(* C18: what a session returns is what its single serializer produced. *)
From RML Require Import Model.Base Model.Chunk Model.ChunkSer Model.Messages Model.SessionCommon Model.Server Model.Client
  Proofs.ServerProofs Proofs.ClientProofs.
Local Open Scope N_scope.

Lemma send_message_is_serialize ser m ts sid force drop b ser' :
  send_message ser m ts sid force drop = Ok (b, ser') ->
  exists body, to_payload m = Ok (message_type_id m, body) /\
    ChunkSer.serialize ser {| m_ts := ts; m_tid := message_type_id m; m_sid := sid; m_data := body |} force drop = Ok (b, ser').
Proof.
  unfold send_message, to_payload. destruct (message_body m) as [body|e|x|]; cbn [obind]; try discriminate.
  destruct (ChunkSer.serialize ser _ force drop) as [[b0 s0]|e|x|] eqn:E; try discriminate.
  intros H. inversion H; subst. exists body. split; [reflexivity|exact E].
Qed.

Lemma server_media_droppable s sid data ts drop s' rs (video : bool) :
  (if video then server_send_video s sid data ts drop else server_send_audio s sid data ts drop) = (s', ROk rs) ->
  exists b, rs = [SPacket b drop].
Proof. destruct video; unfold server_send_video, server_send_audio; intros H; apply (one_packet_ok _ _ _ _ _ _ _ _ H). Qed.
