(* The size of what the AMF0 encoder writes is determined by the value alone: 9 bytes per number, 2 per boolean, 3 + length per
   string, 1 for null / undefined, 4 + (2 + name + value) per property for an object, 5 + elements for a strict array.
   (C19: bounded output; used to show that the sessions' command and metadata messages fit a chunk-layer message.) *)
From Coq Require Import ZArith Lia ZifyN ZifyBool ZifyNat.
From RML Require Import Model.Base Model.Amf0 Proofs.BaseProofs Proofs.Amf0Proofs.
Local Open Scope N_scope.

Fixpoint vsize (v : value) : N :=
  match v with
  | VNumber _ => 9
  | VBoolean _ => 2
  | VString s => 3 + lenN s
  | VNull | VUndefined => 1
  | VObject ps => 4 + (fix go (ps : list (bytes * value)) : N := match ps with [] => 0 | (k, x) :: r => 2 + lenN k + vsize x + go r end) ps
  | VStrictArray vs => 5 + (fix go (vs : list value) : N := match vs with [] => 0 | x :: r => vsize x + go r end) vs
  end.
Fixpoint psize (ps : list (bytes * value)) : N := match ps with [] => 0 | (k, x) :: r => 2 + lenN k + vsize x + psize r end.
Fixpoint vssize (vs : list value) : N := match vs with [] => 0 | x :: r => vsize x + vssize r end.

Lemma vsize_object ps : vsize (VObject ps) = 4 + psize ps.
Proof.
  cbn [vsize]. apply f_equal. induction ps as [|[k x] r IH]; [reflexivity|]. cbn [psize]. rewrite <- IH. reflexivity.
Qed.
Lemma vsize_array vs : vsize (VStrictArray vs) = 5 + vssize vs.
Proof.
  cbn [vsize]. apply f_equal. induction vs as [|x r IH]; [reflexivity|]. cbn [vssize]. rewrite <- IH. reflexivity.
Qed.

(* lengths of concatenations of fixed-width fields, as linear arithmetic over the lengths of the variable parts *)
Ltac lens := unfold lenN; cbn [length]; rewrite ?app_length, ?length_be16, ?length_be32; cbn [length]; lia.

Lemma encode_size_all :
  (forall v b, encode_value v = Ok b -> lenN b = vsize v) /\
  (forall ps b, encode_props ps = Ok b -> lenN b = psize ps) /\
  (forall vs b, encode_values vs = Ok b -> lenN b = vssize vs).
Proof.
  apply value_ind3; try (intros b [= <-]; reflexivity).
  - intros n b [= <-]. reflexivity.
  - intros x b [= <-]. reflexivity.
  - intros s b H. cbn [encode_value] in H. destruct (u16_max <? lenN s); [discriminate|]. injection H as <-. cbn [vsize]. lens.
  - intros ps IH b H. rewrite encode_value_object in H. apply obind_ok in H as [bp [Ep [= <-]]].
    rewrite vsize_object, <- (IH bp Ep). lens.
  - intros vs IH b H. rewrite encode_value_array in H. apply obind_ok in H as [bp [Ep [= <-]]].
    rewrite vsize_array, <- (IH bp Ep). lens.
  - intros k x r Hx Hr b H. cbn [encode_props] in H.
    destruct (u16_max <? lenN k); [discriminate|]. destruct (lenN k =? 0); [discriminate|].
    apply obind_ok in H as [bx [Ex H]]. apply obind_ok in H as [br [Er [= <-]]].
    cbn [psize]. rewrite <- (Hx bx Ex), <- (Hr br Er). lens.
  - intros x r Hx Hr b H. cbn [encode_values] in H.
    apply obind_ok in H as [bx [Ex H]]. apply obind_ok in H as [br [Er [= <-]]].
    cbn [vssize]. rewrite <- (Hx bx Ex), <- (Hr br Er). lens.
Qed.

Theorem encode_value_size v : forall b, encode_value v = Ok b -> lenN b = vsize v.
Proof. apply encode_size_all. Qed.

Theorem serialize_size_exact vs b : serialize vs = Ok b -> lenN b = vssize vs.
Proof. apply encode_size_all. Qed.
