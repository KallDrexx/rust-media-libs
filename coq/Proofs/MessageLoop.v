(* The loop "take the next message out of the deserializer, hand it to the handler, go on while the handler succeeds", for any
   state that holds a deserializer.  Its outcome does not depend on how the input bytes were split into calls: a step looks only
   at a prefix of the bytes waiting (G_ext), and a handler that does not look at them commutes with them. *)
From Coq Require Import List PeanoNat Lia.
From RML Require Import Model.Base Model.Chunk Model.ChunkDe Proofs.ChunkDeProofs Proofs.ChunkDeFuel.
Import ListNotations.

(* one step of a loop: results and go on, nothing more to do, or the verdict that ends the loop *)
Inductive advance (Res V : Type) := More (rs : list Res) | Done | Stop (v : V).
Arguments More {Res V}.
Arguments Done {Res V}.
Arguments Stop {Res V}.

Section Loop.
  Variables (St Res V : Type) (ok : V).
  (* xt s x : the state s with the bytes x appended to what is waiting *)
  Variables (xt : St -> bytes -> St) (step : St -> St * advance Res V).
  Hypothesis xt_nil : forall s, xt s [] = s.
  Hypothesis xt_app : forall s a b, xt (xt s a) b = xt s (a ++ b).
  Hypothesis stop_bad : forall s s' v, step s = (s', Stop v) -> v <> ok.
  (* a step that did something is not affected by bytes that arrive later; one that found nothing left the state blocked *)
  Hypothesis step_xt : forall s x,
    match step s with
    | (s', More rs) => step (xt s x) = (xt s' x, More rs)
    | (s', Stop v) => step (xt s x) = (xt s' x, Stop v)
    | (s', Done) => step (xt s x) = step (xt s' x) /\ step s' = (s', Done)
    end.

  (* loop s acc s' seen v : from s with results acc so far, the loop ends in s' with verdict v; seen = every result produced *)
  Inductive loop : St -> list Res -> St -> list Res -> V -> Prop :=
  | l_done s s' acc : step s = (s', Done) -> loop s acc s' acc ok
  | l_stop s s' acc v : step s = (s', Stop v) -> loop s acc s' acc v
  | l_more s s1 rs acc s' seen v : step s = (s1, More rs) -> loop s1 (acc ++ rs) s' seen v -> loop s acc s' seen v.

  Lemma loop_fun s acc s1 seen1 v1 : loop s acc s1 seen1 v1 ->
    forall s2 seen2 v2, loop s acc s2 seen2 v2 -> s1 = s2 /\ seen1 = seen2 /\ v1 = v2.
  Proof.
    induction 1 as [s s' acc E|s s' acc v E|s s1 rs acc s' seen v E D IH]; intros s2 seen2 v2 D2;
      inversion D2 as [a b c E2|a b c w E2|a b rs2 c d e w E2 D3]; subst; rewrite E in E2; inversion E2; subst.
    - repeat split.
    - repeat split.
    - apply IH. exact D3.
  Qed.

  Lemma loop_step_eq a b acc s' seen v : step a = step b -> loop b acc s' seen v -> loop a acc s' seen v.
  Proof.
    intros E D. inversion D as [s t c E2|s t c w E2|s t rs c d e w E2 D3]; subst; rewrite <- E in E2.
    - apply l_done. exact E2.
    - apply l_stop. exact E2.
    - eapply l_more; [exact E2|exact D3].
  Qed.

  Lemma loop_ext_ok s acc s' seen : loop s acc s' seen ok ->
    forall x s'' seen'' v, loop (xt s' x) seen s'' seen'' v -> loop (xt s x) acc s'' seen'' v.
  Proof.
    enough (Hg : forall v, loop s acc s' seen v -> v = ok ->
              forall x s'' seen'' v', loop (xt s' x) seen s'' seen'' v' -> loop (xt s x) acc s'' seen'' v')
      by (intros D; exact (Hg ok D eq_refl)).
    induction 1 as [s s' acc E|s s' acc v E|s s1 rs acc s' seen v E D IH]; intros Ev x s'' seen'' v'' D2;
      pose proof (step_xt s x) as H; rewrite E in H.
    - apply (loop_step_eq _ _ _ _ _ _ (proj1 H) D2).
    - destruct (stop_bad _ _ _ E Ev).
    - eapply l_more; [exact H|]. apply IH; [exact Ev|exact D2].
  Qed.

  Lemma loop_ext_bad s acc s' seen v : loop s acc s' seen v -> v <> ok -> forall x, loop (xt s x) acc (xt s' x) seen v.
  Proof.
    induction 1 as [s s' acc E|s s' acc v E|s s1 rs acc s' seen v E D IH]; intros Hv x;
      pose proof (step_xt s x) as H; rewrite E in H.
    - contradiction.
    - apply l_stop. exact H.
    - eapply l_more; [exact H|]. apply IH. exact Hv.
  Qed.

  Lemma loop_quiescent s acc s' seen : loop s acc s' seen ok -> step s' = (s', Done).
  Proof.
    enough (Hg : forall v, loop s acc s' seen v -> v = ok -> step s' = (s', Done)) by (intros D; exact (Hg ok D eq_refl)).
    induction 1 as [s s' acc E|s s' acc v E|s s1 rs acc s' seen v E D IH]; intros Ev.
    - pose proof (step_xt s []) as H. rewrite E in H. apply H.
    - destruct (stop_bad _ _ _ E Ev).
    - apply IH. exact Ev.
  Qed.

  (* the loop call after call, each call on the bytes of one piece; it stops at the first call that fails *)
  Inductive calls : St -> list bytes -> list Res -> St -> list Res -> V -> Prop :=
  | c_nil s acc : calls s [] acc s acc ok
  | c_ok s p r acc s1 seen1 s' seen v :
      loop (xt s p) acc s1 seen1 ok -> calls s1 r seen1 s' seen v -> calls s (p :: r) acc s' seen v
  | c_bad s p r acc s1 seen1 v : loop (xt s p) acc s1 seen1 v -> v <> ok -> calls s (p :: r) acc s1 seen1 v.

  (* the end states agree only on ok: a failing call leaves the later pieces unfed, while the one call on the whole input has
     them waiting in its state *)
  Theorem calls_whole pieces : forall s acc s' seen v,
    step s = (s, Done) -> calls s pieces acc s' seen v ->
    exists s'', loop (xt s (concat pieces)) acc s'' seen v /\ (v = ok -> s'' = s').
  Proof.
    induction pieces as [|p r IH]; intros s acc s' seen v Hq F.
    - inversion F as [a b| |]; subst. cbn [concat]. rewrite xt_nil. exists s'. split; [apply l_done; exact Hq|reflexivity].
    - inversion F as [|a b c d s1 seen1 e f g D1 F2|a b c d s1 seen1 g D1 Hv]; subst; cbn [concat]; rewrite <- xt_app.
      + destruct (IH s1 seen1 s' seen v (loop_quiescent _ _ _ _ D1) F2) as [s'' [D2 K]].
        exists s''. split; [apply (loop_ext_ok _ _ _ _ D1); exact D2|exact K].
      + eexists. split; [apply (loop_ext_bad _ _ _ _ _ D1 Hv)|]. intros ->. contradiction.
  Qed.

  Theorem calls_partition_independent s p1 p2 acc s1 seen1 v1 s2 seen2 v2 :
    step s = (s, Done) -> concat p1 = concat p2 ->
    calls s p1 acc s1 seen1 v1 -> calls s p2 acc s2 seen2 v2 -> seen1 = seen2 /\ v1 = v2 /\ (v1 = ok -> s1 = s2).
  Proof.
    intros Hq Hc F1 F2.
    destruct (calls_whole p1 s acc s1 seen1 v1 Hq F1) as [sa [Da Ka]].
    destruct (calls_whole p2 s acc s2 seen2 v2 Hq F2) as [sb [Db Kb]]. rewrite Hc in Da.
    destruct (loop_fun _ _ _ _ _ Da _ _ _ Db) as [Hs [H1 H2]]. split; [exact H1|]. split; [exact H2|].
    intros Hv. rewrite <- (Ka Hv), <- (Kb ltac:(rewrite <- H2; exact Hv)). exact Hs.
  Qed.

  (* when R-related states take like steps, two runs from related states give the same verdict and the same new events *)
  Section Similar.
    Variables (Ev : Type) (ev : list Res -> list Ev) (R : St -> St -> Prop).
    Hypothesis ev_app : forall a b, ev (a ++ b) = ev a ++ ev b.
    Definition like_steps : Prop := forall a b, R a b ->
      match step a, step b with
      | (a', More r1), (b', More r2) => R a' b' /\ ev r1 = ev r2
      | (a', Done), (b', Done) => R a' b'
      | (a', Stop v), (b', Stop w) => R a' b' /\ v = w
      | _, _ => False
      end.
    Hypothesis step_sim : like_steps.

    Lemma loop_similar a acc1 a' seen1 v : loop a acc1 a' seen1 v -> forall b acc2, R a b ->
      exists b' seen2 delta, loop b acc2 b' seen2 v /\ R a' b' /\ ev seen1 = ev acc1 ++ delta /\ ev seen2 = ev acc2 ++ delta.
    Proof.
      induction 1 as [s s' acc E|s s' acc v E|s s1 rs acc s' seen v E D IH]; intros b acc2 HR;
        pose proof (step_sim s b HR) as H; rewrite E in H; destruct (step b) as [b1 [rs2| |w]] eqn:E2; try contradiction.
      - exists b1, acc2, []. rewrite !app_nil_r. split; [apply l_done; exact E2|]. split; [exact H|]. split; reflexivity.
      - destruct H as [H <-]. exists b1, acc2, []. rewrite !app_nil_r. split; [apply l_stop; exact E2|]. split; [exact H|]. split; reflexivity.
      - destruct H as [H Hev]. destruct (IH b1 (acc2 ++ rs2) H) as [b' [seen2 [delta [D2 [R1 [R3 R4]]]]]].
        exists b', seen2, (ev rs ++ delta). split; [eapply l_more; [exact E2|exact D2]|]. split; [exact R1|].
        rewrite R3, R4, !ev_app, <- !app_assoc, Hev. split; reflexivity.
    Qed.
  End Similar.
End Loop.
Arguments loop {St Res V}.
Arguments calls {St Res V}.
Arguments like_steps {St Res V} step {Ev}.

(* The loop of a session: a step asks the deserializer the state holds (de, upd) for the next message and gives it to the
   handler h, which answers with results or with a verdict that ends the loop.  G d is the deserializer run on the bytes it
   holds, ext d x is d with x appended to them, nu d bounds the messages d can still deliver (ChunkDeProofs, ChunkDeFuel). *)
Section Session.
  Variables (St Res V : Type) (ok : V) (de : St -> dstate) (upd : St -> dstate -> St).
  Hypothesis de_upd : forall s d, de (upd s d) = d.
  Hypothesis upd_de : forall s, upd s (de s) = s.
  Hypothesis upd_upd : forall s d d', upd (upd s d) d' = upd s d'.
  (* the verdicts for an error of the deserializer and for running out of fuel *)
  Variables (wire : de_err -> V) (panic : V) (h : St -> msg -> St * (list Res + V)).

  Definition xt (s : St) (x : bytes) : St := upd s (ext (de s) x).

  Hypothesis wire_bad : forall e, wire e <> ok.
  Hypothesis h_bad : forall s p, snd (h s p) <> inr ok.
  (* the handler does not look at the bytes waiting in the deserializer *)
  Hypothesis h_xt : forall s x p, h (xt s x) p = (xt (fst (h s p)) x, snd (h s p)).

  Definition mstep_on (s : St) (g : dstate * de_result) : St * advance Res V :=
    match g with
    | (d, DMsg p) => let (s1, r) := h (upd s d) p in (s1, match r with inl rs => More rs | inr v => Stop v end)
    | (d, DNone) => (upd s d, Done)
    | (d, DErr e) => (upd s d, Stop (wire e))
    | (d, DOutOfFuel) => (upd s d, Stop panic)
    end.
  Definition mstep (s : St) : St * advance Res V := mstep_on s (G (de s)).

  Lemma xt_nil s : xt s [] = s.
  Proof. unfold xt. rewrite ext_nil. apply upd_de. Qed.
  Lemma xt_app s a b : xt (xt s a) b = xt s (a ++ b).
  Proof. unfold xt. rewrite de_upd, upd_upd, ext_ext. reflexivity. Qed.

  Lemma step_xt_eq s x : mstep (xt s x) = mstep_on s (G (ext (de s) x)).
  Proof.
    unfold mstep, xt. rewrite de_upd. unfold mstep_on. destruct (G (ext (de s) x)) as [d res]. rewrite upd_upd. reflexivity.
  Qed.

  Lemma step_quiet s : G (de s) = (de s, DNone) -> mstep s = (s, Done).
  Proof. intros H. unfold mstep. rewrite H. cbn [mstep_on]. rewrite upd_de. reflexivity. Qed.

  Lemma stop_bad s s' v : mstep s = (s', Stop v) -> v <> ok.
  Proof.
    unfold mstep, mstep_on. pose proof (G_total (de s)) as Ht.
    destruct (G (de s)) as [d [p| |e|]]; [|discriminate| |contradiction].
    - pose proof (h_bad (upd s d) p) as Hb. destruct (h (upd s d) p) as [s1 [rs|w]]; [discriminate|].
      intros E <-. injection E as _ <-. apply Hb. reflexivity.
    - intros E. injection E as _ <-. apply wire_bad.
  Qed.

  Lemma step_xt s x :
    match mstep s with
    | (s', More rs) => mstep (xt s x) = (xt s' x, More rs)
    | (s', Stop v) => mstep (xt s x) = (xt s' x, Stop v)
    | (s', Done) => mstep (xt s x) = mstep (xt s' x) /\ mstep s' = (s', Done)
    end.
  Proof.
    rewrite step_xt_eq. unfold mstep at 1. pose proof (G_ext (de s) x) as He.
    assert (Hx : forall d, xt (upd s d) x = upd s (ext d x)) by (intros d; unfold xt; rewrite de_upd, upd_upd; reflexivity).
    destruct (G (de s)) as [d [p| |e|]]; [| | |contradiction]; cbn [mstep_on].
    - rewrite He. cbn [mstep_on]. rewrite <- Hx, h_xt. destruct (h (upd s d) p) as [s1 [rs|v]]; reflexivity.
    - destruct He as [He Hb]. split.
      + rewrite He, step_xt_eq, de_upd. unfold mstep_on. destruct (G (ext d x)) as [d' res]. rewrite upd_upd. reflexivity.
      + unfold mstep. rewrite de_upd, (G_blocked d Hb). cbn [mstep_on]. rewrite upd_upd. reflexivity.
    - rewrite He. cbn [mstep_on]. rewrite Hx. reflexivity.
  Qed.

  Theorem session_partition_independent s p1 p2 acc s1 seen1 v1 s2 seen2 v2 :
    G (de s) = (de s, DNone) -> concat p1 = concat p2 ->
    calls ok xt mstep s p1 acc s1 seen1 v1 -> calls ok xt mstep s p2 acc s2 seen2 v2 ->
    seen1 = seen2 /\ v1 = v2 /\ (v1 = ok -> s1 = s2).
  Proof.
    intros Hq. apply (calls_partition_independent _ _ _ ok xt mstep xt_nil xt_app stop_bad step_xt). apply step_quiet. exact Hq.
  Qed.

  (* the executable loop with fuel of the session models, by its defining equations; rep builds what a call returns from the
     results gathered and the verdict (both sessions return the results on ok and only the error otherwise) *)
  Variables (Rep : Type) (rep : list Res -> V -> Rep) (run : nat -> St -> bytes -> list Res -> St * Rep).
  Hypothesis run_O : forall s input acc, run O s input acc = (s, rep acc panic).
  Hypothesis run_S : forall f s input acc, run (S f) s input acc =
    match mstep_on s (get_next_message (de s) input) with
    | (s1, More rs) => run f s1 [] (acc ++ rs)
    | (s1, Done) => (s1, rep acc ok)
    | (s1, Stop v) => (s1, rep acc v)
    end.

  Lemma run_sound : (forall s p, nu (de (fst (h s p))) = nu (de s)) ->
    forall fuel s input acc, (nu (ext (de s) input) < fuel)%nat ->
    exists s' seen v, run fuel s input acc = (s', rep seen v) /\ loop ok mstep (xt s input) acc s' seen v.
  Proof.
    intros h_nu. induction fuel as [|f IH]; intros s input acc Hn; [inversion Hn|]. rewrite run_S.
    pose proof (step_xt_eq s input) as Es. pose proof (G_total (ext (de s) input)) as Ht. rewrite <- gnm_G in Es, Ht.
    destruct (get_next_message (de s) input) as [d res] eqn:Eg. cbn [snd] in Ht.
    destruct res as [p| |e|]; [| | |contradiction]; cbn [mstep_on] in Es |- *.
    - pose proof (h_nu (upd s d) p) as Hnu. rewrite de_upd in Hnu.
      destruct (h (upd s d) p) as [s1 [rs|v]]; cbn [fst] in Hnu.
      + assert (Hn1 : (nu (ext (de s1) []) < f)%nat).
        { unfold get_next_message in Eg. apply loop_msg_cost in Eg. fold (ext (de s) input) in Eg. rewrite ext_nil.
          clear - Eg Hnu Hn. lia. }   (* cleared: lia would make the lemma depend on every hypothesis of the section *)
        destruct (IH s1 [] (acc ++ rs) Hn1) as [s' [seen [v [E1 E2]]]]. rewrite xt_nil in E2.
        exists s', seen, v. split; [exact E1|]. eapply l_more; [exact Es|exact E2].
      + exists s1, acc, v. split; [reflexivity|]. apply l_stop. exact Es.
    - exists (upd s d), acc, ok. split; [reflexivity|]. apply l_done. exact Es.
    - exists (upd s d), acc, (wire e). split; [reflexivity|]. apply l_stop. exact Es.
  Qed.

  Lemma run_invariant (P : St -> Prop) : (forall s d, P s -> P (upd s d)) -> (forall s p, P s -> P (fst (h s p))) ->
    forall fuel s input acc, P s -> P (fst (run fuel s input acc)).
  Proof.
    intros Hu Hh. induction fuel as [|f IH]; intros s input acc HP; [rewrite run_O; exact HP|]. rewrite run_S.
    destruct (get_next_message (de s) input) as [d [p| |e|]]; cbn [mstep_on fst]; try (apply Hu; exact HP).
    pose proof (Hh (upd s d) p (Hu s d HP)) as H1. destruct (h (upd s d) p) as [s1 [rs|v]]; [apply IH|]; exact H1.
  Qed.

  Lemma run_measure (m : dstate -> nat) :
    (forall d input d' r, get_next_message d input = (d', r) -> (m d' <= m d + length input)%nat) ->
    (forall s p, m (de (fst (h s p))) = m (de s)) ->
    forall fuel s input acc, (m (de (fst (run fuel s input acc))) <= m (de s) + length input)%nat.
  Proof.
    intros Hg Hh. induction fuel as [|f IH]; intros s input acc; [rewrite run_O; apply Nat.le_add_r|]. rewrite run_S.
    destruct (get_next_message (de s) input) as [d res] eqn:Eg. apply Hg in Eg.
    destruct res as [p| |e|]; cbn [mstep_on fst]; rewrite ?de_upd; try exact Eg.
    pose proof (Hh (upd s d) p) as H1. rewrite de_upd in H1.
    destruct (h (upd s d) p) as [s1 [rs|v]]; cbn [fst] in H1 |- *.
    - apply (Nat.le_trans _ _ _ (IH s1 [] (acc ++ rs))). cbn [length]. rewrite H1, Nat.add_0_r. exact Eg.
    - rewrite H1. exact Eg.
  Qed.

  Lemma run_prefix fuel : forall s input acc, exists more v, snd (run fuel s input acc) = rep (acc ++ more) v.
  Proof.
    induction fuel as [|f IH]; intros s input acc; [exists [], panic; rewrite run_O, app_nil_r; reflexivity|]. rewrite run_S.
    destruct (mstep_on s (get_next_message (de s) input)) as [s1 [rs| |v]].
    - destruct (IH s1 [] (acc ++ rs)) as [more [v E]]. exists (rs ++ more), v. rewrite E, app_assoc. reflexivity.
    - exists [], ok. rewrite app_nil_r. reflexivity.
    - exists [], v. rewrite app_nil_r. reflexivity.
  Qed.
End Session.
Arguments xt {St}.
Arguments mstep_on {St Res V}.
Arguments mstep {St Res V}.

(* the fuel the sessions' handle_input gives its loop (one unit per byte held or arriving, and two) is enough for run_sound *)
Lemma nu_ext_fuel d input : (nu (ext d input) < S (S (length (d_buf d) + length input)))%nat.
Proof. unfold nu, ext. cbn [d_buf d_stage set_buf]. rewrite app_length. destruct (d_stage d); cbn [pending]; lia. Qed.
