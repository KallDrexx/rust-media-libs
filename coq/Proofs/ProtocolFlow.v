(* C02, command phases after connect (createStream, publish, play, stop), whole-packet deliveries.  Every receiving call is an
   instance of one step: a message one session sends is handled by the peer's handle_input as exactly that decoded message, after
   the acknowledgement prelude, and the chunk layers are linked again (server_delivers / client_delivers).  What remains per stage is
   what the handler does with that one message. *)
From Coq Require Import Lia String.
From RML Require Import Model.Base Model.Utf8 Model.Chunk Model.ChunkSer Model.ChunkDe Model.Amf0 Model.Messages Model.Float Model.SessionCommon
  Model.Server Model.Client Spec.Amf0Wire
  Proofs.Amf0Proofs Proofs.Amf0Size Proofs.MessageProofs Proofs.ConfigProofs Proofs.InteropProofs Proofs.FloatProofs
  Proofs.BaseProofs Proofs.ServerProofs Proofs.ClientPartition Proofs.MetadataProofs Proofs.ProtocolProofs.
Local Open Scope N_scope.

(* messages whose handler leaves the deserializer alone and whose type id is a known one *)
Definition plain (m : rtmp_message) : Prop :=
  match m with MSetChunkSize _ | MUnknown _ _ => False | _ => True end.

Lemma plain_id m : plain m -> message_type_id m < 256 /\ message_type_id m <> 1.
Proof. intros Hp. destruct m; try contradiction; split; (reflexivity || discriminate). Qed.

(* no acknowledgement falls due in the call that reads b: the counter a stays below the peer's window (C17 decides when) *)
Definition quiet (a : ack_state) (b : bytes) : Prop := snd (ack_step a (lenN b)) = None.

(* b is the packet in which ser, linked with the receiver's deserializer de, sent m; own is the receiver's serializer *)
Inductive sent (ser : sstate) (de : dstate) (own : sstate) (m : rtmp_message) (ts sid : N) (f d : bool) (b : bytes) (ser' : sstate) : Prop :=
  Sent : Link ser de -> ser_ok own -> ts < 4294967296 -> sid < 4294967296 -> send_message ser m ts sid f d = Ok (b, ser') ->
         sent ser de own m ts sid f d b ser'.
Arguments Sent {ser de own m ts sid f d b ser'}.

(* the receive step with the handler left to the caller; s0 is s as the acknowledgement prelude leaves it (see server_reads in
   InteropProofs for the other forms of this step) *)
Lemma server_receives s ser m ts sid f d b ser' clock :
  Link ser (sv_de s) -> ser_ok (sv_ser s) -> msg_ok m -> plain m -> ts < 4294967296 -> sid < 4294967296 ->
  send_message ser m ts sid f d = Ok (b, ser') ->
  exists p de1 de3 s0 pre,
    of_payload (m_tid p) (m_data p) = Ok m /\ m_sid p = sid /\ m_ts p = ts /\
    same_core s s0 /\ sv_de s0 = sv_de s /\ ser_ok (sv_ser s0) /\ events pre = [] /\
    (quiet (sv_ack s) b -> pre = [] /\ sv_ser s0 = sv_ser s) /\
    sv_ack s0 = fst (ack_step (sv_ack s) (lenN b)) /\
    Link ser' de3 /\
    server_handle_input s b clock =
      (let '(s1, r) := h_message (upd_de s0 de1) p clock in
       match r with ROk rs => (upd_de s1 de3, ROk (pre ++ rs)) | _ => (s1, r) end).
Proof.
  intros HL Hser Hok Hp Hts Hsid Hsend. destruct (plain_id m Hp) as [Ht Ht1].
  destruct (server_reads_sent s ser m ts sid f d b ser' clock HL Hser Hok Ht Ht1 Hts Hsid Hsend)
    as [p [de1 [de3 [bs [ser0 [Hof [Hs [Hts' [Hpre [HL2 E]]]]]]]]]].
  exists p, de1, de3, (upd_ack (upd_ser s ser0) (fst (ack_step (sv_ack s) (lenN b)))), (map (fun x => SPacket x false) bs).
  split; [exact Hof|]. split; [exact Hs|]. split; [exact Hts'|]. split; [repeat split|]. split; [reflexivity|].
  split; [exact (prelude_ser_ok _ _ _ _ _ _ Hser Hpre)|]. split; [rewrite <- (app_nil_r (map _ bs)); apply events_packets|].
  split; [intros Hq; destruct (prelude_quiet _ _ _ _ _ _ Hq Hpre) as [-> ->]; split; reflexivity|].
  split; [reflexivity|]. split; [exact HL2|exact E].
Qed.

Lemma client_receives c ser m ts sid f d b ser' clock :
  Link ser (cl_de c) -> ser_ok (cl_ser c) -> msg_ok m -> plain m -> ts < 4294967296 -> sid < 4294967296 ->
  send_message ser m ts sid f d = Ok (b, ser') ->
  exists p de1 de3 c0 pre,
    of_payload (m_tid p) (m_data p) = Ok m /\ m_sid p = sid /\ m_ts p = ts /\
    (cl_cfg c0 = cl_cfg c /\ cl_next_tr c0 = cl_next_tr c /\ cl_trs c0 = cl_trs c /\ cl_state c0 = cl_state c /\
     cl_app c0 = cl_app c /\ cl_stream c0 = cl_stream c) /\ cl_de c0 = cl_de c /\ ser_ok (cl_ser c0) /\ cevents pre = [] /\
    (quiet (cl_ack c) b -> pre = [] /\ cl_ser c0 = cl_ser c) /\
    cl_ack c0 = fst (ack_step (cl_ack c) (lenN b)) /\
    Link ser' de3 /\
    client_handle_input c b clock =
      (let '(c1, r) := ch_message (cupd_de c0 de1) p clock in
       match r with COk rs => (cupd_de c1 de3, COk (pre ++ rs)) | _ => (c1, r) end).
Proof.
  intros HL Hser Hok Hp Hts Hsid Hsend. destruct (plain_id m Hp) as [Ht Ht1].
  destruct (client_reads_sent c ser m ts sid f d b ser' clock HL Hser Hok Ht Ht1 Hts Hsid Hsend)
    as [p [de1 [de3 [bs [ser0 [Hof [Hs [Hts' [Hpre [HL2 E]]]]]]]]]].
  exists p, de1, de3, (cupd_ack (cupd_ser c ser0) (fst (ack_step (cl_ack c) (lenN b)))), (map (fun x => CPacket x false) bs).
  split; [exact Hof|]. split; [exact Hs|]. split; [exact Hts'|]. split; [repeat split|]. split; [reflexivity|].
  split; [exact (prelude_ser_ok _ _ _ _ _ _ Hser Hpre)|]. split; [rewrite <- (app_nil_r (map _ bs)); apply cevents_packets|].
  split; [intros Hq; destruct (prelude_quiet _ _ _ _ _ _ Hq Hpre) as [-> ->]; split; reflexivity|].
  split; [reflexivity|]. split; [exact HL2|exact E].
Qed.

Definition create_reply (tr id : N) : rtmp_message := MAmf0Command (str "_result") tr VNull [VNumber (u32_to_f64 id)].
Definition type_str (t : publish_type) : bytes := match t with TLive => str "live" | TRecord => str "record" | TAppend => str "append" end.
Definition mode_of_type (t : publish_type) : publish_mode := match t with TLive => PLive | TRecord => PRecord | TAppend => PAppend end.
Definition publish_cmd (key : bytes) (t : publish_type) : rtmp_message :=
  MAmf0Command (str "publish") 0 VNull [VString key; VString (type_str t)].
Definition publish_start (key : bytes) : rtmp_message :=
  onstatus "status" "NetStream.Publish.Start" (str "Successfully started publishing on stream key " ++ key).
Definition play_cmd (key : bytes) : rtmp_message := MAmf0Command (str "play") 0 VNull [VString key].
Definition buffer_msg (id bl : N) : rtmp_message := MUserControl SetBufferLength (Some id) (Some bl) None.
Definition play_reset : rtmp_message := onstatus "status" "NetStream.Play.Reset" (str "Reset stream").
Definition play_start (key : bytes) : rtmp_message :=
  onstatus "status" "NetStream.Play.Start" (str "Successfully started playback on stream key " ++ key).
Definition sample_access : rtmp_message := MAmf0Data [VString (str "|RtmpSampleAccess"); VBoolean false; VBoolean false].
Definition data_start : rtmp_message := MAmf0Data [VString (str "onStatus"); VObject [(str "code", VString (str "NetStream.Data.Start"))]].
Definition delete_cmd (sid : N) : rtmp_message := MAmf0Command (str "deleteStream") 0 VNull [VNumber (u32_to_f64 sid)].

Lemma mode_of_type_str t : mode_of (type_str t) = Some (mode_of_type t).
Proof. destruct t; vm_compute; reflexivity. Qed.
Lemma type_str_utf8 t : utf8_valid (type_str t) = true.
Proof. destruct t; vm_compute; reflexivity. Qed.

Lemma utf8_ascii_app p l : forallb (fun b => b <? 128) p = true -> utf8_valid (p ++ l) = utf8_valid l.
Proof.
  induction p as [|b p IH]; intros H; [reflexivity|]. cbn [forallb] in H. apply andb_prop in H as [Hb Hp].
  rewrite <- (IH Hp). unfold utf8_valid. cbn [List.app List.length utf8_valid_fuel]. rewrite Hb. reflexivity.
Qed.

Lemma status_ok (code : string) (d : bytes) : utf8_valid (str code) = true -> utf8_valid d = true -> msg_ok (onstatus "status" code d).
Proof.
  intros Hc Hd. unfold onstatus, status_object. cbn [msg_ok wf_values]. split; [reflexivity|]. split; [cbn; lia|]. split; [exact I|]. split; [|exact I].
  apply wf_value_object. cbn [map fst]. split.
  - apply nodupb_sound. reflexivity.
  - cbn [wf_props wf_value]. repeat split; try reflexivity; assumption.
Qed.

Lemma encode_values_when vs : Forall (fun v => expressible v = true -> exists b, encode_value v = Ok b) vs ->
  expressible_all vs = true -> exists b, encode_values vs = Ok b.
Proof.
  induction 1 as [|x r Hv _ IHr]; intros Hx; [eexists; reflexivity|]. cbn [expressible_all] in Hx. apply andb_prop in Hx as [Hxv Hxr].
  cbn [encode_values]. destruct (Hv Hxv) as [bv ->]. destruct (IHr Hxr) as [br ->]. eexists. reflexivity.
Qed.

Lemma encode_expressible v : expressible v = true -> exists b, encode_value v = Ok b.
Proof.
  induction v as [n|x|s|ps IH|vs IH| |] using value_ind2; intros Hx; try (eexists; reflexivity).
  - cbn [expressible] in Hx. cbn [encode_value]. replace (u16_max <? lenN s) with false by (unfold u16_max; lia). eexists. reflexivity.
  - rewrite expressible_object in Hx. rewrite encode_value_object.
    assert (Hp : exists b, encode_props ps = Ok b).
    { induction ps as [|[k x] r IHr]; [eexists; reflexivity|]. inversion IH as [|? ? Hv Hr]; subst. cbn [snd] in Hv.
      cbn [expressible_props] in Hx. apply andb_prop in Hx as [Hx Hxr]. apply andb_prop in Hx as [Hk Hxv]. apply andb_prop in Hk as [Hk1 Hk2].
      cbn [encode_props]. replace (u16_max <? lenN k) with false by (unfold u16_max; lia). replace (lenN k =? 0) with false by lia.
      destruct (Hv Hxv) as [bv ->]. destruct (IHr Hr Hxr) as [br ->]. eexists. reflexivity. }
    destruct Hp as [bp ->]. eexists. reflexivity.
  - rewrite expressible_array in Hx. rewrite encode_value_array. destruct (encode_values_when vs IH Hx) as [bp ->]. eexists. reflexivity.
Qed.

Lemma values_body vs L : expressible_all vs = true -> vssize vs <= L -> exists body, Amf0.serialize vs = Ok body /\ lenN body <= L.
Proof.
  intros Hx HL. destruct (encode_values_when vs (proj2 (Forall_forall _ vs) (fun v _ => encode_expressible v)) Hx) as [b E].
  exists b. split; [exact E|]. rewrite (serialize_size_exact vs b E). exact HL.
Qed.

Lemma command_body name tr obj args L :
  expressible_all (VString name :: VNumber tr :: obj :: args) = true -> vssize (VString name :: VNumber tr :: obj :: args) <= L ->
  body_le (MAmf0Command name tr obj args) L.
Proof.
  intros Hx HL. destruct (values_body _ L Hx HL) as [b [E Hb]]. exists 20, b. unfold to_payload. cbn [message_body]. rewrite E. split; [reflexivity|exact Hb].
Qed.

Lemma data_body vs L : expressible_all vs = true -> vssize vs <= L -> body_le (MAmf0Data vs) L.
Proof.
  intros Hx HL. destruct (values_body vs L Hx HL) as [b [E Hb]]. exists 18, b. unfold to_payload. cbn [message_body]. rewrite E. split; [reflexivity|exact Hb].
Qed.

Lemma lenN_str s : lenN (str s) = N.of_nat (String.length s).
Proof. induction s as [|a s IH]; [reflexivity|]. cbn [str String.length]. rewrite lenN_cons, IH. lia. Qed.

(* Bounds on encoded bodies (body_le, InteropProofs), round on purpose: they feed the packet bound of AckHeadroom.  A message
   without the stream key stays under 200 bytes, one with the key under |key| + 200.  In a status message 80 covers what is fixed
   (66 bytes: command name, transaction number and null, the object's markers, lengths, property names and "status"); code and text
   prefix are at most 120 bytes together.  Keys are bounded by 65000 so that prefix ++ key fits AMF0's 16-bit string length. *)
Lemma create_cmd_body x : body_le (MAmf0Command (str "createStream") x VNull []) 200.
Proof. apply command_body; [reflexivity|]. cbn [vssize vsize]. rewrite lenN_str. cbn [String.length]. lia. Qed.
Lemma create_reply_body x id : body_le (create_reply x id) 200.
Proof. apply command_body; [reflexivity|]. cbn [vssize vsize]. rewrite lenN_str. cbn [String.length]. lia. Qed.
Lemma delete_cmd_body sid : body_le (delete_cmd sid) 200.
Proof. apply command_body; [reflexivity|]. cbn [vssize vsize]. rewrite lenN_str. cbn [String.length]. lia. Qed.
Lemma play_reset_body : body_le play_reset 200.
Proof. eexists. eexists. split; [vm_compute; reflexivity|vm_compute; discriminate]. Qed.
Lemma sample_access_body : body_le sample_access 200.
Proof. eexists. eexists. split; [vm_compute; reflexivity|vm_compute; discriminate]. Qed.
Lemma data_start_body : body_le data_start 200.
Proof. eexists. eexists. split; [vm_compute; reflexivity|vm_compute; discriminate]. Qed.

Lemma user_control_body ev a bl ts0 : body_le (MUserControl ev a bl ts0) 200.
Proof.
  unfold body_le, to_payload. destruct ev; cbn [message_body obind message_type_id]; eexists; eexists; (split; [reflexivity|]);
    rewrite !lenN_app; unfold lenN, be16, be32; cbn [List.length]; lia.
Qed.

Lemma publish_cmd_body key t : lenN key <= 65535 -> body_le (publish_cmd key t) (lenN key + 200).
Proof.
  intros H. apply N.leb_le in H. apply command_body.
  - cbn [expressible_all expressible]. rewrite H. destruct t; reflexivity.
  - cbn [vssize vsize]. rewrite lenN_str. cbn [String.length]. assert (lenN (type_str t) <= 6) by (destruct t; vm_compute; discriminate). lia.
Qed.
Lemma play_cmd_body key : lenN key <= 65535 -> body_le (play_cmd key) (lenN key + 200).
Proof.
  intros H. apply N.leb_le in H. apply command_body.
  - cbn [expressible_all expressible]. rewrite H. reflexivity.
  - cbn [vssize vsize]. rewrite lenN_str. cbn [String.length]. lia.
Qed.

Lemma status_key_body (code : string) prefix key : lenN (str code) + lenN prefix <= 120 -> lenN key <= 65000 ->
  body_le (onstatus "status" code (prefix ++ key)) (lenN key + 200).
Proof.
  intros Hc Hk. pose proof (lenN_app prefix key) as Hd. apply command_body.
  - unfold status_object. cbn [expressible_all expressible]. replace (lenN (str code) <=? 65535) with true by lia.
    replace (lenN (prefix ++ key) <=? 65535) with true by lia. reflexivity.
  - unfold status_object. cbn [vssize]. rewrite vsize_object. cbn [psize vsize]. rewrite !lenN_str in *. cbn [String.length]. lia.
Qed.
Lemma publish_start_body key : lenN key <= 65000 -> body_le (publish_start key) (lenN key + 200).
Proof. apply status_key_body. vm_compute. discriminate. Qed.
Lemma play_start_body key : lenN key <= 65000 -> body_le (play_start key) (lenN key + 200).
Proof. apply status_key_body. vm_compute. discriminate. Qed.

Lemma h_command_create s sid tr obj args clock : h_command s sid (str "createStream") tr obj args clock = h_create_stream s tr clock.
Proof. unfold h_command. eqb_strs. reflexivity. Qed.
Lemma h_command_publish s sid tr obj args clock : h_command s sid (str "publish") tr obj args clock = h_publish s sid tr args clock.
Proof. unfold h_command. eqb_strs. reflexivity. Qed.
Lemma h_command_play s sid tr obj args clock : h_command s sid (str "play") tr obj args clock = h_play s sid tr args clock.
Proof. unfold h_command. eqb_strs. reflexivity. Qed.
Lemma h_command_delete s sid tr obj args clock : h_command s sid (str "deleteStream") tr obj args clock = h_close_or_delete true s args.
Proof. unfold h_command. eqb_strs. reflexivity. Qed.
Lemma ch_command_status c tr obj args clock : ch_command c (str "onStatus") tr obj args clock = ch_status c args.
Proof. unfold ch_command. eqb_strs. reflexivity. Qed.

(* The server is given b, the packet in which a linked serializer - ser' afterwards - sent one message.  The call succeeds and takes
   the session to the workflow state of t; its results carry the events of `out`; when no acknowledgement falls due they are
   exactly `out`, written with the serializer s had, which ends as t's. *)
Definition sdelivers (s : server) (b : bytes) (clock : N) (ser' : sstate) (t : server) (out : list sresult) : Prop :=
  exists s' rs, server_handle_input s b clock = (s', ROk rs) /\ events rs = events out /\ same_core t s' /\
    Link ser' (sv_de s') /\ ser_ok (sv_ser s') /\ sv_ack s' = fst (ack_step (sv_ack s) (lenN b)) /\
    (quiet (sv_ack s) b -> rs = out /\ sv_ser s' = sv_ser t).

(* It is enough to run the handler on the decoded message, from s with whatever serializer, counter and deserializer the
   acknowledgement prelude and the chunk layer left. *)
Lemma server_delivers {s ser m ts sid f d b ser' clock t out} :
  sent ser (sv_de s) (sv_ser s) m ts sid f d b ser' -> plain m -> msg_ok m ->
  (forall p ser0 a0 de1, of_payload (m_tid p) (m_data p) = Ok m -> m_sid p = sid -> m_ts p = ts -> ser_ok ser0 ->
     exists ser1 rs,
       h_message (upd_de (upd_ack (upd_ser s ser0) a0) de1) p clock = (upd_de (upd_ack (upd_ser t ser1) a0) de1, ROk rs) /\
       ser_ok ser1 /\ events rs = events out /\ (ser0 = sv_ser s -> rs = out /\ ser1 = sv_ser t)) ->
  sdelivers s b clock ser' t out.
Proof.
  intros [HL Hser Hts Hsid Hsend] Hp Hok Hm. destruct (plain_id m Hp) as [Ht Ht1].
  destruct (server_reads_sent s ser m ts sid f d b ser' clock HL Hser Hok Ht Ht1 Hts Hsid Hsend)
    as [p [de1 [de3 [bs [ser0 [Hof [Hs [Hts' [Hpre [HL2 E]]]]]]]]]].
  destruct (Hm p ser0 (fst (ack_step (sv_ack s) (lenN b))) de1 Hof Hs Hts' (prelude_ser_ok _ _ _ _ _ _ Hser Hpre))
    as [ser1 [rs [Eh [Hs1 [Hev Hq]]]]].
  rewrite Eh in E.
  eexists. eexists. split; [exact E|]. split; [rewrite events_packets; exact Hev|]. split; [repeat split|].
  split; [exact HL2|]. split; [exact Hs1|]. split; [reflexivity|].
  intros Hquiet. destruct (prelude_quiet _ _ _ _ _ _ Hquiet Hpre) as [-> ->]. exact (Hq eq_refl).
Qed.

Lemma server_delivers_silent {s ser m ts sid f d b ser' clock t out} :
  sent ser (sv_de s) (sv_ser s) m ts sid f d b ser' -> plain m -> sv_ser t = sv_ser s -> msg_ok m ->
  (forall p ser0 a0 de1, of_payload (m_tid p) (m_data p) = Ok m -> m_sid p = sid -> m_ts p = ts ->
     h_message (upd_de (upd_ack (upd_ser s ser0) a0) de1) p clock = (upd_de (upd_ack (upd_ser t ser0) a0) de1, ROk out)) ->
  sdelivers s b clock ser' t out.
Proof.
  intros S Hp Et Hok Hm. apply (server_delivers S Hp Hok).
  intros p ser0 a0 de1 Hof Hs Hts' Hs0. exists ser0, out. split; [exact (Hm p ser0 a0 de1 Hof Hs Hts')|].
  split; [exact Hs0|]. split; [reflexivity|]. intros ->. split; [reflexivity|symmetry; exact Et].
Qed.

Definition cdelivers (c : client) (b : bytes) (clock : N) (ser' : sstate) (t : client) (out : list cresult) : Prop :=
  exists c' rs, client_handle_input c b clock = (c', COk rs) /\ cevents rs = cevents out /\ csame_core t c' /\
    Link ser' (cl_de c') /\ ser_ok (cl_ser c') /\ cl_ack c' = fst (ack_step (cl_ack c) (lenN b)) /\
    (quiet (cl_ack c) b -> rs = out /\ cl_ser c' = cl_ser t).

Lemma client_delivers {c ser m ts sid f d b ser' clock t out} :
  sent ser (cl_de c) (cl_ser c) m ts sid f d b ser' -> plain m -> msg_ok m ->
  (forall p ser0 a0 de1, of_payload (m_tid p) (m_data p) = Ok m -> m_sid p = sid -> m_ts p = ts -> ser_ok ser0 ->
     exists ser1 rs,
       ch_message (cupd_de (cupd_ack (cupd_ser c ser0) a0) de1) p clock = (cupd_de (cupd_ack (cupd_ser t ser1) a0) de1, COk rs) /\
       ser_ok ser1 /\ cevents rs = cevents out /\ (ser0 = cl_ser c -> rs = out /\ ser1 = cl_ser t)) ->
  cdelivers c b clock ser' t out.
Proof.
  intros [HL Hser Hts Hsid Hsend] Hp Hok Hm. destruct (plain_id m Hp) as [Ht Ht1].
  destruct (client_reads_sent c ser m ts sid f d b ser' clock HL Hser Hok Ht Ht1 Hts Hsid Hsend)
    as [p [de1 [de3 [bs [ser0 [Hof [Hs [Hts' [Hpre [HL2 E]]]]]]]]]].
  destruct (Hm p ser0 (fst (ack_step (cl_ack c) (lenN b))) de1 Hof Hs Hts' (prelude_ser_ok _ _ _ _ _ _ Hser Hpre))
    as [ser1 [rs [Eh [Hs1 [Hev Hq]]]]].
  rewrite Eh in E.
  eexists. eexists. split; [exact E|]. split; [rewrite cevents_packets; exact Hev|]. split; [repeat split|].
  split; [exact HL2|]. split; [exact Hs1|]. split; [reflexivity|].
  intros Hquiet. destruct (prelude_quiet _ _ _ _ _ _ Hquiet Hpre) as [-> ->]. exact (Hq eq_refl).
Qed.

Lemma client_delivers_silent {c ser m ts sid f d b ser' clock t out} :
  sent ser (cl_de c) (cl_ser c) m ts sid f d b ser' -> plain m -> cl_ser t = cl_ser c -> msg_ok m ->
  (forall p ser0 a0 de1, of_payload (m_tid p) (m_data p) = Ok m -> m_sid p = sid -> m_ts p = ts ->
     ch_message (cupd_de (cupd_ack (cupd_ser c ser0) a0) de1) p clock = (cupd_de (cupd_ack (cupd_ser t ser0) a0) de1, COk out)) ->
  cdelivers c b clock ser' t out.
Proof.
  intros S Hp Et Hok Hm. apply (client_delivers S Hp Hok).
  intros p ser0 a0 de1 Hof Hs Hts' Hs0. exists ser0, out. split; [exact (Hm p ser0 a0 de1 Hof Hs Hts')|].
  split; [exact Hs0|]. split; [reflexivity|]. intros ->. split; [reflexivity|symmetry; exact Et].
Qed.

Lemma server_ignores {s ser m ts sid f d b ser' clock out} :
  sent ser (sv_de s) (sv_ser s) m ts sid f d b ser' -> plain m -> msg_ok m ->
  (forall s0 p, of_payload (m_tid p) (m_data p) = Ok m -> h_message s0 p clock = (s0, ROk out)) ->
  sdelivers s b clock ser' s out.
Proof.
  intros S Hp Hok Hm. apply (server_delivers_silent S Hp eq_refl Hok).
  intros p ser0 a0 de1 Hof _ _. exact (Hm _ p Hof).
Qed.

Lemma client_ignores {c ser m ts sid f d b ser' clock out} :
  sent ser (cl_de c) (cl_ser c) m ts sid f d b ser' -> plain m -> msg_ok m ->
  (forall c0 p, of_payload (m_tid p) (m_data p) = Ok m -> ch_message c0 p clock = (c0, COk out)) ->
  cdelivers c b clock ser' c out.
Proof.
  intros S Hp Hok Hm. apply (client_delivers_silent S Hp eq_refl Hok).
  intros p ser0 a0 de1 Hof _ _. exact (Hm _ p Hof).
Qed.

Theorem create_stream_delivered c s p clock sclock :
  Link (cl_ser c) (sv_de s) -> ser_ok (sv_ser s) -> cl_state c = Connected -> cl_next_tr c < 4294967296 ->
  clock < 4294967296 ->
  exists b1 ser1 b2 ser2,
    send_message (cl_ser c) (MAmf0Command (str "createStream") (u32_to_f64 (cl_next_tr c)) VNull []) clock 0 false false = Ok (b1, ser1) /\
    create_stream_request c p clock =
      (cupd_ser (cupd_trs c (insert (cl_next_tr c) (TCreateStream p) (cl_trs c)) (cl_next_tr c + 1)) ser1, COk [CPacket b1 false]) /\
    ser_ok ser1 /\
    send_message (sv_ser s) (create_reply (u32_to_f64 (cl_next_tr c)) (sv_next_stream s)) sclock 0 false false = Ok (b2, ser2) /\
    sdelivers s b1 sclock ser1
      (upd_ser (upd_streams s (insert (sv_next_stream s) StCreated (sv_streams s)) (sv_next_stream s + 1)) ser2) [SPacket b2 false].
Proof.
  intros HL Hss Hst Htr Hclk.
  set (M := MAmf0Command (str "createStream") (u32_to_f64 (cl_next_tr c)) VNull []).
  destruct (send_fits (cl_ser c) M clock 0 false false 200 (Link_ser_ok _ _ HL) (create_cmd_body _) ltac:(lia)) as [b1 [ser1 [E1 Hs1]]].
  destruct (send_fits (sv_ser s) (create_reply (u32_to_f64 (cl_next_tr c)) (sv_next_stream s)) sclock 0 false false 200 Hss (create_reply_body _ _) ltac:(lia))
    as [b2 [ser2 [E2 _]]].
  exists b1, ser1, b2, ser2. split; [exact E1|].
  split. { unfold create_stream_request. rewrite Hst. unfold new_transaction, cone_packet, csending. cbv zeta. cbn [cl_ser cupd_trs]. fold M. rewrite E1. reflexivity. }
  split; [exact Hs1|]. split; [exact E2|].
  apply (server_delivers (Sent (sid := 0) HL Hss Hclk ltac:(lia) E1) I).
  - cbn [msg_ok M wf_values wf_value]. repeat split; try reflexivity. apply u32_to_f64_bound; exact Htr.
  - intros pk ser0 a0 de1 Hof _ _ Hs0.
    destruct (send_fits ser0 (create_reply (u32_to_f64 (cl_next_tr c)) (sv_next_stream s)) sclock 0 false false 200 Hs0 (create_reply_body _ _) ltac:(lia))
      as [bw [serw [Ew Hw]]].
    exists serw, [SPacket bw false]. split.
    { unfold h_message. rewrite Hof. unfold M. cbv iota. rewrite h_command_create.
      unfold h_create_stream, one_packet, sending. cbv zeta. cbn [sv_ser sv_next_stream sv_streams upd_streams upd_de upd_ack upd_ser].
      fold (create_reply (u32_to_f64 (cl_next_tr c)) (sv_next_stream s)). rewrite Ew. reflexivity. }
    split; [exact Hw|]. split; [reflexivity|]. intros ->. rewrite E2 in Ew. injection Ew as <- <-. split; reflexivity.
Qed.

Lemma create_reply_ok trn id : trn < 4294967296 -> id < 4294967296 -> msg_ok (create_reply (u32_to_f64 trn) id).
Proof. intros Htrn Hid. cbn [msg_ok create_reply wf_values wf_value]. repeat split; try reflexivity; apply u32_to_f64_bound; assumption. Qed.

Lemma ch_message_create_reply c p clock trn id pu :
  of_payload (m_tid p) (m_data p) = Ok (create_reply (u32_to_f64 trn) id) -> trn < 4294967296 -> id < 4294967296 ->
  lookup trn (cl_trs c) = Some (TCreateStream pu) ->
  ch_message c p clock =
    ch_result c (u32_to_f64 trn) VNull [VNumber (u32_to_f64 id)] clock /\
  take_transaction c (u32_to_f64 trn) = Some (cupd_trs c (remove trn (cl_trs c)) (cl_next_tr c), TCreateStream pu) /\
  f64_to_u32 (u32_to_f64 id) = id.
Proof.
  intros Hof Htrn Hid Htr. split; [unfold ch_message; rewrite Hof; apply ch_command_result|].
  split; [unfold take_transaction; rewrite (u32_roundtrip trn Htrn), Htr; reflexivity|exact (u32_roundtrip id Hid)].
Qed.

Theorem create_result_publish ser ser' b2 c trn id key t sclock cclock :
  sent ser (cl_de c) (cl_ser c) (create_reply (u32_to_f64 trn) id) sclock 0 false false b2 ser' ->
  trn < 4294967296 -> id < 4294967296 -> lenN key <= 65535 ->
  lookup trn (cl_trs c) = Some (TCreateStream (PurposePublish key t)) ->
  exists b3 ser3,
    send_message (cl_ser c) (publish_cmd key t) cclock id false false = Ok (b3, ser3) /\
    cdelivers c b2 cclock ser'
      (cupd_ser (cupd_state (cupd_stream (cupd_trs c (remove trn (cl_trs c)) (cl_next_tr c)) (Some id)) PublishRequested) ser3)
      [CPacket b3 false].
Proof.
  intros S Htrn Hid Hkl Htr. pose proof S as [_ Hcs _ _ _].
  destruct (send_fits (cl_ser c) (publish_cmd key t) cclock id false false _ Hcs (publish_cmd_body key t Hkl) ltac:(lia)) as [b3 [ser3 [E3 _]]].
  exists b3, ser3. split; [exact E3|].
  apply (client_delivers S I (create_reply_ok trn id Htrn Hid)).
  intros p ser0 a0 de1 Hof _ _ Hs0.
  destruct (send_fits ser0 (publish_cmd key t) cclock id false false _ Hs0 (publish_cmd_body key t Hkl) ltac:(lia)) as [bw [serw [Ew Hw]]].
  exists serw, [CPacket bw false]. split.
  { destruct (ch_message_create_reply (cupd_de (cupd_ack (cupd_ser c ser0) a0) de1) p cclock trn id _ Hof Htrn Hid Htr) as [-> [Et Ei]].
    unfold ch_result. rewrite Et. cbv zeta iota. rewrite Ei. unfold cone_packet, csending.
    cbn [cl_ser cupd_state cupd_stream cupd_trs cupd_de cupd_ack cupd_ser]. fold (type_str t). fold (publish_cmd key t). rewrite Ew. reflexivity. }
  split; [exact Hw|]. split; [reflexivity|]. intros ->. rewrite E3 in Ew. injection Ew as <- <-. split; reflexivity.
Qed.

Theorem create_result_play ser ser' b2 c trn id key sclock cclock :
  sent ser (cl_de c) (cl_ser c) (create_reply (u32_to_f64 trn) id) sclock 0 false false b2 ser' ->
  trn < 4294967296 -> id < 4294967296 -> lenN key <= 65535 ->
  lookup trn (cl_trs c) = Some (TCreateStream (PurposePlay key)) ->
  exists b3 serm b4 ser4,
    send_message (cl_ser c) (buffer_msg id (cc_buffer (cl_cfg c))) cclock 0 false false = Ok (b3, serm) /\
    send_message serm (play_cmd key) cclock id false false = Ok (b4, ser4) /\
    cdelivers c b2 cclock ser'
      (cupd_ser (cupd_state (cupd_stream (cupd_trs c (remove trn (cl_trs c)) (cl_next_tr c)) (Some id)) PlayRequested) ser4)
      [CPacket b3 false; CPacket b4 false].
Proof.
  intros S Htrn Hid Hkl Htr. pose proof S as [_ Hcs _ _ _].
  assert (Hw : forall ser0, ser_ok ser0 -> exists b3 serm b4 ser4,
             send_message ser0 (buffer_msg id (cc_buffer (cl_cfg c))) cclock 0 false false = Ok (b3, serm) /\
             send_message serm (play_cmd key) cclock id false false = Ok (b4, ser4) /\ ser_ok ser4).
  { intros ser0 Hs0.
    destruct (send_fits ser0 (buffer_msg id (cc_buffer (cl_cfg c))) cclock 0 false false 200 Hs0 (user_control_body _ _ _ _) ltac:(lia)) as [b3 [serm [E3 Hm]]].
    destruct (send_fits serm (play_cmd key) cclock id false false _ Hm (play_cmd_body key Hkl) ltac:(lia)) as [b4 [ser4 [E4 H4]]].
    exists b3, serm, b4, ser4. split; [exact E3|]. split; [exact E4|exact H4]. }
  destruct (Hw (cl_ser c) Hcs) as [b3 [serm [b4 [ser4 [E3 [E4 _]]]]]].
  exists b3, serm, b4, ser4. split; [exact E3|]. split; [exact E4|].
  apply (client_delivers S I (create_reply_ok trn id Htrn Hid)).
  intros p ser0 a0 de1 Hof _ _ Hs0.
  destruct (Hw ser0 Hs0) as [x3 [xm [x4 [xer4 [X3 [X4 Hx]]]]]].
  exists xer4, [CPacket x3 false; CPacket x4 false]. split.
  { destruct (ch_message_create_reply (cupd_de (cupd_ack (cupd_ser c ser0) a0) de1) p cclock trn id _ Hof Htrn Hid Htr) as [-> [Et Ei]].
    unfold ch_result. rewrite Et. cbv zeta iota. rewrite Ei. unfold csending.
    cbn [cl_ser cl_cfg cupd_state cupd_stream cupd_trs cupd_de cupd_ack cupd_ser].
    fold (buffer_msg id (cc_buffer (cl_cfg c))). fold (play_cmd key). rewrite X3. cbn [cl_ser cupd_ser]. rewrite X4. reflexivity. }
  split; [exact Hx|]. split; [reflexivity|]. intros ->. rewrite E3 in X3. injection X3 as <- <-. rewrite E4 in X4. injection X4 as <- <-. split; reflexivity.
Qed.

Theorem publish_request_delivered ser ser' b s key t id app cclock sclock :
  sent ser (sv_de s) (sv_ser s) (publish_cmd key t) cclock id false false b ser' -> utf8_valid key = true ->
  sv_connected s = true -> sv_app s = Some app ->
  sdelivers s b sclock ser'
    (upd_reqs s (insert (sv_next_req s) (RPublish key (mode_of_type t) id) (sv_reqs s)) (sv_next_req s + 1))
    [SEvent (EvPublishRequested (sv_next_req s) app key (mode_of_type t))].
Proof.
  intros S Hkey Hconn Happ.
  apply (server_delivers_silent S I); [reflexivity| |].
  - cbn [msg_ok publish_cmd wf_values wf_value]. repeat split; try reflexivity; try assumption. apply type_str_utf8.
  - intros p ser0 a0 de1 Hof Hsid _. unfold h_message. rewrite Hof. unfold publish_cmd. cbv iota.
    rewrite h_command_publish. unfold h_publish. cbn [sv_connected sv_app upd_de upd_ack upd_ser].
    rewrite Hconn, Happ. cbn [negb]. cbv iota. rewrite mode_of_type_str. unfold new_request. rewrite Hsid. reflexivity.
Qed.

Theorem play_request_delivered ser ser' b s key id app cclock sclock :
  sent ser (sv_de s) (sv_ser s) (play_cmd key) cclock id false false b ser' -> utf8_valid key = true ->
  sv_connected s = true -> sv_app s = Some app ->
  sdelivers s b sclock ser'
    (upd_reqs s (insert (sv_next_req s) (RPlay key id) (sv_reqs s)) (sv_next_req s + 1))
    [SEvent (EvPlayRequested (sv_next_req s) app key LiveOrRecorded None false id)].
Proof.
  intros S Hkey Hconn Happ.
  apply (server_delivers_silent S I); [reflexivity| |].
  - cbn [msg_ok play_cmd wf_values wf_value]. repeat split; try reflexivity; assumption.
  - intros p ser0 a0 de1 Hof Hsid _. unfold h_message. rewrite Hof. unfold play_cmd. cbv iota.
    rewrite h_command_play. unfold h_play. cbn [sv_connected sv_app upd_de upd_ack upd_ser].
    rewrite Hconn, Happ. cbn [negb]. cbv iota. unfold new_request. rewrite Hsid. reflexivity.
Qed.

Theorem publish_accepted s n key mode id st clock :
  ser_ok (sv_ser s) -> lenN key <= 65000 ->
  lookup n (sv_reqs s) = Some (RPublish key mode id) -> lookup id (sv_streams s) = Some st ->
  exists b4 serm b5 ser5,
    send_message (sv_ser s) (MUserControl StreamBegin (Some id) None None) clock id false false = Ok (b4, serm) /\
    send_message serm (publish_start key) clock id false false = Ok (b5, ser5) /\ ser_ok ser5 /\
    server_accept s n clock =
      (upd_ser (upd_streams (upd_reqs s (remove n (sv_reqs s)) (sv_next_req s)) (insert id (StPublishing key mode) (sv_streams s)) (sv_next_stream s)) ser5,
       ROk [SPacket b4 false; SPacket b5 false]).
Proof.
  intros Hss Hkl Hreq Hst.
  destruct (send_fits (sv_ser s) (MUserControl StreamBegin (Some id) None None) clock id false false 200 Hss (user_control_body _ _ _ _) ltac:(lia))
    as [b4 [serm [E4 Hm]]].
  destruct (send_fits serm (publish_start key) clock id false false _ Hm (publish_start_body key Hkl) ltac:(lia)) as [b5 [ser5 [E5 H5]]].
  exists b4, serm, b5, ser5. split; [exact E4|]. split; [exact E5|]. split; [exact H5|].
  unfold server_accept. rewrite Hreq. cbv zeta iota. unfold accept_publish. cbn [sv_streams upd_reqs]. rewrite Hst. cbv zeta.
  unfold sending. cbn [sv_ser upd_streams upd_reqs]. rewrite E4. cbn [sv_ser upd_ser]. fold (publish_start key). rewrite E5. reflexivity.
Qed.

Theorem play_accepted s n key id st clock :
  ser_ok (sv_ser s) -> lenN key <= 65000 ->
  lookup n (sv_reqs s) = Some (RPlay key id) -> lookup id (sv_streams s) = Some st ->
  exists b1 e1 b2 e2 b3 e3 b4 e4 b5 e5,
    send_message (sv_ser s) play_reset clock id false false = Ok (b1, e1) /\
    send_message e1 (MUserControl StreamBegin (Some id) None None) clock id false false = Ok (b2, e2) /\
    send_message e2 (play_start key) clock id false false = Ok (b3, e3) /\
    send_message e3 sample_access clock id false false = Ok (b4, e4) /\
    send_message e4 data_start clock id false false = Ok (b5, e5) /\ ser_ok e5 /\
    server_accept s n clock =
      (upd_ser (upd_streams (upd_reqs s (remove n (sv_reqs s)) (sv_next_req s)) (insert id (StPlaying key) (sv_streams s)) (sv_next_stream s)) e5,
       ROk [SPacket b1 false; SPacket b2 false; SPacket b3 false; SPacket b4 false; SPacket b5 false]).
Proof.
  intros Hss Hkl Hreq Hst.
  destruct (send_fits (sv_ser s) play_reset clock id false false 200 Hss play_reset_body ltac:(lia)) as [b1 [e1 [E1 H1]]].
  destruct (send_fits e1 (MUserControl StreamBegin (Some id) None None) clock id false false 200 H1 (user_control_body _ _ _ _) ltac:(lia)) as [b2 [e2 [E2 H2]]].
  destruct (send_fits e2 (play_start key) clock id false false _ H2 (play_start_body key Hkl) ltac:(lia)) as [b3 [e3 [E3 H3]]].
  destruct (send_fits e3 sample_access clock id false false 200 H3 sample_access_body ltac:(lia)) as [b4 [e4 [E4 H4]]].
  destruct (send_fits e4 data_start clock id false false 200 H4 data_start_body ltac:(lia)) as [b5 [e5 [E5 H5]]].
  exists b1, e1, b2, e2, b3, e3, b4, e4, b5, e5. repeat (split; [assumption|]).
  unfold server_accept. rewrite Hreq. cbv zeta iota. unfold accept_play. cbn [sv_streams upd_reqs]. rewrite Hst. cbv zeta.
  unfold sending. cbn [sv_ser upd_streams upd_reqs]. fold play_reset (play_start key) sample_access data_start.
  rewrite E1. cbn [sv_ser upd_ser]. rewrite E2. cbn [sv_ser upd_ser]. rewrite E3. cbn [sv_ser upd_ser]. rewrite E4. cbn [sv_ser upd_ser]. rewrite E5.
  reflexivity.
Qed.

Theorem stream_begin_ignored ser ser' b c id clock cclock :
  sent ser (cl_de c) (cl_ser c) (MUserControl StreamBegin (Some id) None None) clock id false false b ser' ->
  cdelivers c b cclock ser' c [].
Proof.
  intros S. pose proof S as [_ _ _ Hid _]. apply (client_ignores S I).
  - cbn [msg_ok]. split; [exists id; split; [reflexivity|exact Hid]|split; reflexivity].
  - intros c0 p Hof. unfold ch_message. rewrite Hof. reflexivity.
Qed.

Theorem buffer_length_ignored ser ser' b s id bl clock sclock :
  sent ser (sv_de s) (sv_ser s) (buffer_msg id bl) clock 0 false false b ser' -> id < 4294967296 -> bl < 4294967296 ->
  sdelivers s b sclock ser' s [].
Proof.
  intros S Hid Hbl. apply (server_ignores S I).
  - cbn [msg_ok buffer_msg]. split; [exists id, bl; repeat split; assumption|reflexivity].
  - intros s0 p Hof. unfold h_message. rewrite Hof. reflexivity.
Qed.

Theorem data_ignored ser ser' b c m id clock cclock :
  m = sample_access \/ m = data_start -> sent ser (cl_de c) (cl_ser c) m clock id false false b ser' ->
  cdelivers c b cclock ser' c [].
Proof.
  intros Hm S.
  apply (client_ignores S); [destruct Hm as [-> | ->]; exact I| |].
  - destruct Hm as [-> | ->]; cbn [msg_ok sample_access data_start wf_values wf_value]; repeat split; try reflexivity.
    apply nodupb_sound. reflexivity.
  - intros c0 p Hof. unfold ch_message. rewrite Hof.
    destruct Hm as [-> | ->]; unfold ch_data, sample_access, data_start; cbv iota; destruct (cl_stream c0) as [a|]; try reflexivity;
      destruct (a =? m_sid p); reflexivity.
Qed.

Lemma ch_message_status c p clock (level code : string) d :
  of_payload (m_tid p) (m_data p) = Ok (onstatus level code d) -> ch_message c p clock = ch_status c [status_object level code d].
Proof. intros Hof. unfold ch_message. rewrite Hof. apply ch_command_status. Qed.

Lemma status_code x y z : prop_get (str "code") [(str "level", x); (str "code", y); (str "description", z)] = Some y.
Proof. reflexivity. Qed.

Theorem publish_start_delivered ser ser' b c key id clock cclock :
  sent ser (cl_de c) (cl_ser c) (publish_start key) clock id false false b ser' -> utf8_valid key = true ->
  cl_state c = PublishRequested ->
  cdelivers c b cclock ser' (cupd_state c Publishing) [CEvent CPublishAccepted].
Proof.
  intros S Hkey Hst.
  apply (client_delivers_silent S I); [reflexivity| |].
  - apply status_ok; [reflexivity|]. rewrite utf8_ascii_app by reflexivity. exact Hkey.
  - intros p ser0 a0 de1 Hof _ _. rewrite (ch_message_status _ p cclock _ _ _ Hof). unfold ch_status, status_object. rewrite status_code.
    eqb_strs.
    cbn [cl_state cupd_de cupd_ack cupd_ser]. rewrite Hst. reflexivity.
Qed.

Theorem play_start_delivered ser ser' b c key id clock cclock :
  sent ser (cl_de c) (cl_ser c) (play_start key) clock id false false b ser' -> utf8_valid key = true ->
  cl_state c = PlayRequested ->
  cdelivers c b cclock ser' (cupd_state c Playing) [CEvent CPlaybackAccepted].
Proof.
  intros S Hkey Hst.
  apply (client_delivers_silent S I); [reflexivity| |].
  - apply status_ok; [reflexivity|]. rewrite utf8_ascii_app by reflexivity. exact Hkey.
  - intros p ser0 a0 de1 Hof _ _. rewrite (ch_message_status _ p cclock _ _ _ Hof). unfold ch_status, status_object. rewrite status_code.
    eqb_strs.
    cbn [cl_state cupd_de cupd_ack cupd_ser]. rewrite Hst. reflexivity.
Qed.

Theorem play_reset_delivered ser ser' b c id clock cclock :
  sent ser (cl_de c) (cl_ser c) play_reset clock id false false b ser' ->
  cdelivers c b cclock ser' c [CEvent (CUnhandleableStatus (str "NetStream.Play.Reset"))].
Proof.
  intros S. apply (client_ignores S I).
  - apply status_ok; reflexivity.
  - intros c0 p Hof. rewrite (ch_message_status _ p cclock _ _ _ Hof). reflexivity.
Qed.

Lemma stop_delivered c s sid app st clock sclock :
  Link (cl_ser c) (sv_de s) -> ser_ok (sv_ser s) -> cl_stream c = Some sid -> sid < 4294967296 -> clock < 4294967296 ->
  sv_connected s = true -> sv_app s = Some app -> lookup sid (sv_streams s) = Some st ->
  exists b ser1,
    stop c clock = (cupd_ser (cupd_stream (cupd_state c Connected) None) ser1, COk [CPacket b false]) /\
    sdelivers s b sclock ser1 (upd_streams s (remove sid (sv_streams s)) (sv_next_stream s)) (finished_event app st).
Proof.
  intros HL Hss Hstr Hsid Hclk Hconn Happ Hst.
  destruct (send_fits (cl_ser c) (delete_cmd sid) clock sid false false 200 (Link_ser_ok _ _ HL) (delete_cmd_body sid) ltac:(lia)) as [b [ser1 [Esend _]]].
  exists b, ser1. split.
  { unfold stop. rewrite Hstr. cbv zeta. fold (delete_cmd sid). unfold cone_packet, csending. cbn [cl_ser cupd_stream cupd_state]. rewrite Esend. reflexivity. }
  apply (server_delivers_silent (Sent HL Hss Hclk Hsid Esend) I); [reflexivity| |].
  - cbn [msg_ok delete_cmd wf_values wf_value]. repeat split; try reflexivity. apply u32_to_f64_bound; exact Hsid.
  - intros p ser0 a0 de1 Hof _ _. unfold h_message. rewrite Hof. unfold delete_cmd. cbv iota.
    rewrite h_command_delete. unfold h_close_or_delete. cbn [sv_connected sv_app sv_streams upd_de upd_ack upd_ser].
    rewrite Hconn, Happ. cbn [negb]. cbv iota. rewrite (u32_roundtrip sid Hsid), Hst. reflexivity.
Qed.

Theorem stop_publishing_raises_finished c s sid app key mode clock sclock :
  Link (cl_ser c) (sv_de s) -> ser_ok (cl_ser c) -> ser_ok (sv_ser s) ->
  cl_state c = Publishing -> cl_stream c = Some sid -> sid < 4294967296 -> clock < 4294967296 ->
  sv_connected s = true -> sv_app s = Some app -> lookup sid (sv_streams s) = Some (StPublishing key mode) ->
  exists c1 b s1 r2, client_stop_publishing c clock = (c1, COk [CPacket b false]) /\ cl_state c1 = Connected /\ cl_stream c1 = None /\
    server_handle_input s b sclock = (s1, ROk r2) /\
    events r2 = [EvPublishFinished app key] /\ lookup sid (sv_streams s1) = None /\ Link (cl_ser c1) (sv_de s1) /\
    (quiet (sv_ack s) b -> r2 = [SEvent (EvPublishFinished app key)]).
Proof.
  intros HL Hcs Hss Hst Hstr Hsid Hclk Hconn Happ Hlk. unfold client_stop_publishing. rewrite Hst.
  destruct (stop_delivered c s sid app (StPublishing key mode) clock sclock HL Hss Hstr Hsid Hclk Hconn Happ Hlk)
    as [b [ser1 [E [s1 [r2 [Hin [Hev [[_ [_ [_ [_ [Hs _]]]]] [HL1 [_ [_ Hq]]]]]]]]]]].
  eexists. exists b, s1, r2. split; [exact E|]. split; [reflexivity|]. split; [reflexivity|]. split; [exact Hin|].
  split; [exact Hev|]. split; [rewrite Hs; apply ChunkSpecProofs.lookup_remove_same|]. split; [exact HL1|].
  intros Hquiet. exact (proj1 (Hq Hquiet)).
Qed.

Theorem stop_playback_raises_finished c s sid app key clock sclock :
  Link (cl_ser c) (sv_de s) -> ser_ok (cl_ser c) -> ser_ok (sv_ser s) ->
  cl_state c = Playing -> cl_stream c = Some sid -> sid < 4294967296 -> clock < 4294967296 ->
  sv_connected s = true -> sv_app s = Some app -> lookup sid (sv_streams s) = Some (StPlaying key) ->
  exists c1 b s1 r2, client_stop_playback c clock = (c1, COk [CPacket b false]) /\ cl_state c1 = Connected /\ cl_stream c1 = None /\
    server_handle_input s b sclock = (s1, ROk r2) /\
    events r2 = [EvPlayFinished app key] /\ lookup sid (sv_streams s1) = None /\ Link (cl_ser c1) (sv_de s1) /\
    (quiet (sv_ack s) b -> r2 = [SEvent (EvPlayFinished app key)]).
Proof.
  intros HL Hcs Hss Hst Hstr Hsid Hclk Hconn Happ Hlk. unfold client_stop_playback. rewrite Hst.
  destruct (stop_delivered c s sid app (StPlaying key) clock sclock HL Hss Hstr Hsid Hclk Hconn Happ Hlk)
    as [b [ser1 [E [s1 [r2 [Hin [Hev [[_ [_ [_ [_ [Hs _]]]]] [HL1 [_ [_ Hq]]]]]]]]]]].
  eexists. exists b, s1, r2. split; [exact E|]. split; [reflexivity|]. split; [reflexivity|]. split; [exact Hin|].
  split; [exact Hev|]. split; [rewrite Hs; apply ChunkSpecProofs.lookup_remove_same|]. split; [exact HL1|].
  intros Hquiet. exact (proj1 (Hq Hquiet)).
Qed.

(* A connected pair with linked chunk layers, for which each call of the publish and of the play exchange succeeds and no
   acknowledgement falls due (the two Examples below). *)
Definition ex_client : client :=
  {| cl_ser := ser_init; cl_de := de_init;
     cl_cfg := {| cc_flash := str "v"; cc_buffer := 1000; cc_window := 2500000; cc_chunk := 4096; cc_tcurl := None |};
     cl_next_tr := 2; cl_trs := []; cl_state := Connected; cl_app := Some (str "live"); cl_stream := None;
     cl_ack := {| ack_window := Some 2500000; ack_since := 0 |} |}.
Definition ex_server : server :=
  {| sv_ser := ser_init; sv_de := de_init; sv_app := Some (str "live"); sv_reqs := []; sv_next_req := 1; sv_connected := true;
     sv_fms := str "FMS/3,0,1,123"; sv_objenc := 0; sv_streams := []; sv_next_stream := 1;
     sv_ack := {| ack_window := Some 2500000; ack_since := 0 |} |}.

Definition the_cpacket (r : cresult) : bytes := match r with CPacket b _ => b | _ => [] end.
Definition the_spacket (r : sresult) : bytes := match r with SPacket b _ => b | _ => [] end.

Example publish_premises_satisfiable :
  Link (cl_ser ex_client) (sv_de ex_server) /\ Link (sv_ser ex_server) (cl_de ex_client) /\
  exists c1 b1 s1 b2 c2 b3 s2 ev s3 b4 b5 c3 c4,
    client_request_publishing ex_client (str "key") TLive 10 = (c1, COk [CPacket b1 false]) /\
    server_handle_input ex_server b1 11 = (s1, ROk [SPacket b2 false]) /\ quiet (sv_ack ex_server) b1 /\
    client_handle_input c1 b2 12 = (c2, COk [CPacket b3 false]) /\ quiet (cl_ack c1) b2 /\
    server_handle_input s1 b3 13 = (s2, ROk [SEvent ev]) /\ quiet (sv_ack s1) b3 /\
    ev = EvPublishRequested 1 (str "live") (str "key") PLive /\
    server_accept s2 1 14 = (s3, ROk [SPacket b4 false; SPacket b5 false]) /\
    client_handle_input c2 b4 15 = (c3, COk []) /\ quiet (cl_ack c2) b4 /\
    client_handle_input c3 b5 16 = (c4, COk [CEvent CPublishAccepted]) /\ quiet (cl_ack c3) b5 /\
    publishing_stream c4 = Ok 1 /\ publishing_key s3 1 = Some (str "live", str "key").
Proof.
  split; [exact Link_init|]. split; [exact Link_init|].
  pose (x1 := client_request_publishing ex_client (str "key") TLive 10).
  pose (b1 := match snd x1 with COk [r] => the_cpacket r | _ => [] end).
  pose (y1 := server_handle_input ex_server b1 11).
  pose (b2 := match snd y1 with ROk [r] => the_spacket r | _ => [] end).
  pose (x2 := client_handle_input (fst x1) b2 12).
  pose (b3 := match snd x2 with COk [r] => the_cpacket r | _ => [] end).
  pose (y2 := server_handle_input (fst y1) b3 13).
  pose (y3 := server_accept (fst y2) 1 14).
  pose (b4 := match snd y3 with ROk [r; _] => the_spacket r | _ => [] end).
  pose (b5 := match snd y3 with ROk [_; r] => the_spacket r | _ => [] end).
  pose (x3 := client_handle_input (fst x2) b4 15).
  pose (x4 := client_handle_input (fst x3) b5 16).
  exists (fst x1), b1, (fst y1), b2, (fst x2), b3, (fst y2), (EvPublishRequested 1 (str "live") (str "key") PLive), (fst y3), b4, b5, (fst x3), (fst x4).
  vm_compute. repeat split.
Qed.

Example play_premises_satisfiable :
  exists c1 b1 s1 b2 c2 b3 b4 s2 s3 s4 p1 p2 p3 p4 p5 c3 c4 c5 c6 c7,
    client_request_playback ex_client (str "key") 10 = (c1, COk [CPacket b1 false]) /\
    server_handle_input ex_server b1 11 = (s1, ROk [SPacket b2 false]) /\ quiet (sv_ack ex_server) b1 /\
    client_handle_input c1 b2 12 = (c2, COk [CPacket b3 false; CPacket b4 false]) /\ quiet (cl_ack c1) b2 /\
    server_handle_input s1 b3 13 = (s2, ROk []) /\ quiet (sv_ack s1) b3 /\
    server_handle_input s2 b4 14 = (s3, ROk [SEvent (EvPlayRequested 1 (str "live") (str "key") LiveOrRecorded None false 1)]) /\ quiet (sv_ack s2) b4 /\
    server_accept s3 1 15 = (s4, ROk [SPacket p1 false; SPacket p2 false; SPacket p3 false; SPacket p4 false; SPacket p5 false]) /\
    client_handle_input c2 p1 16 = (c3, COk [CEvent (CUnhandleableStatus (str "NetStream.Play.Reset"))]) /\ quiet (cl_ack c2) p1 /\
    client_handle_input c3 p2 17 = (c4, COk []) /\ quiet (cl_ack c3) p2 /\
    client_handle_input c4 p3 18 = (c5, COk [CEvent CPlaybackAccepted]) /\ quiet (cl_ack c4) p3 /\
    client_handle_input c5 p4 19 = (c6, COk []) /\ quiet (cl_ack c5) p4 /\
    client_handle_input c6 p5 20 = (c7, COk []) /\ quiet (cl_ack c6) p5 /\
    cl_state c7 = Playing /\ cl_stream c7 = Some 1 /\ lookup 1 (sv_streams s4) = Some (StPlaying (str "key")).
Proof.
  pose (x1 := client_request_playback ex_client (str "key") 10).
  pose (b1 := match snd x1 with COk [r] => the_cpacket r | _ => [] end).
  pose (y1 := server_handle_input ex_server b1 11).
  pose (b2 := match snd y1 with ROk [r] => the_spacket r | _ => [] end).
  pose (x2 := client_handle_input (fst x1) b2 12).
  pose (b3 := match snd x2 with COk [r; _] => the_cpacket r | _ => [] end).
  pose (b4 := match snd x2 with COk [_; r] => the_cpacket r | _ => [] end).
  pose (y2 := server_handle_input (fst y1) b3 13).
  pose (y3 := server_handle_input (fst y2) b4 14).
  pose (y4 := server_accept (fst y3) 1 15).
  pose (pk := fun n => match snd y4 with ROk rs => the_spacket (nth n rs (SPacket [] false)) | _ => [] end).
  pose (x3 := client_handle_input (fst x2) (pk 0%nat) 16).
  pose (x4 := client_handle_input (fst x3) (pk 1%nat) 17).
  pose (x5 := client_handle_input (fst x4) (pk 2%nat) 18).
  pose (x6 := client_handle_input (fst x5) (pk 3%nat) 19).
  pose (x7 := client_handle_input (fst x6) (pk 4%nat) 20).
  exists (fst x1), b1, (fst y1), b2, (fst x2), b3, b4, (fst y2), (fst y3), (fst y4), (pk 0%nat), (pk 1%nat), (pk 2%nat), (pk 3%nat), (pk 4%nat),
    (fst x3), (fst x4), (fst x5), (fst x6), (fst x7).
  vm_compute. repeat split.
Qed.
