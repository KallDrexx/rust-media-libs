(* T2: the library's staged deserializer refines the specification decoder: every chunk the spec decoder accepts is
   parsed by the staged parser to the same effect (same completed message, states related by Rel).  With C15 (partition
   independence) this gives C06 (foreign conformant streams), C16 (interleaving) and the deserializer half of C01/C08. *)
From Coq Require Import ZArith Lia ZifyN ZifyBool ZifyNat.
From RML Require Import Model.Base Model.Time Model.Chunk Model.ChunkDe Gen.Consts Spec.ChunkSpec
  Proofs.BaseProofs Proofs.ChunkSpecProofs Proofs.ChunkDeStages Proofs.ChunkDeProofs.
Local Open Scope N_scope.

Definition mk (max : N) (f : fmt) (cur : dhdr) (stg : stage) (buf : bytes) (prev : list (N * dhdr)) (partial : list (N * bytes)) : dstate :=
  {| d_max := max; d_fmt := f; d_cur := cur; d_stage := stg; d_buf := buf; d_prev := prev; d_partial := partial |}.

Definition fmt_of (n : N) : fmt := match n with 0 => Full | 1 => NoSid | 2 => DeltaOnly | _ => Empty end.

Lemma parse_basic_de bs fmt csid form rest : parse_basic bs = Some (fmt, csid, form, rest) ->
  get_format (hd 0 bs) = fmt_of fmt /\ get_csid bs = Some (csid, form) /\ drop_n form bs = rest.
Proof.
  unfold parse_basic, get_csid, get_format. destruct bs as [|b0 r0]; [discriminate|]. cbn [hd].
  destruct (b0 mod 64) as [|[p|p|]]; cbn [N.eqb Pos.eqb].
  - destruct r0 as [|b1 r1]; [discriminate|]. intros H. injection H as <- <- <- <-. repeat split. apply (drop_n_app [b0; b1] r1 2 eq_refl).
  - intros H. injection H as <- <- <- <-. repeat split. apply (drop_n_app [b0] r0 1 eq_refl).
  - intros H. injection H as <- <- <- <-. repeat split. apply (drop_n_app [b0] r0 1 eq_refl).
  - destruct r0 as [|b1 [|b2 r2]]; try discriminate. intros H. injection H as <- <- <- <-. repeat split. apply (drop_n_app [b0; b1; b2] r2 3 eq_refl).
Qed.

Lemma st1 max f cur fmt csid form B prev part h prev' :
  fmt <= 3 -> form_ok csid form = true -> header_start (fmt_of fmt) csid prev = Some (h, prev') ->
  run_stage (mk max f cur StCsid (basic_header_bytes fmt csid form ++ B) prev part) =
  Ok (Success, mk max (fmt_of fmt) h StInitialTimestamp B prev' part, None).
Proof.
  intros Hf Hform Hs. destruct (parse_basic_de _ _ _ _ _ (parse_basic_emit fmt csid form B Hf Hform)) as [H1 [H2 H3]].
  rewrite header_reader by reflexivity. cbn [mk d_buf d_prev d_max d_partial]. rewrite H2, H1, Hs, H3. reflexivity.
Qed.

Definition plen (cur : dhdr) (part : list (N * bytes)) : N :=
  match lookup (d_csid cur) part with Some p => lenN p | None => 0 end.

(* what each header stage reads in format F, and the header it leaves *)
Definition ts_bytes (F : fmt) (t : N) : bytes := match F with Empty => [] | _ => be24 t end.
Definition len_bytes (F : fmt) (l : N) : bytes := match F with Full | NoSid => be24 l | _ => [] end.
Definition tid_bytes (F : fmt) (ti : N) : bytes := match F with Full | NoSid => [ti] | _ => [] end.
Definition sid_bytes (F : fmt) (si : N) : bytes := match F with Full => le32 si | _ => [] end.
Definition xts_bytes (fld : N) : bytes := if 16777215 <=? fld then be32 fld else [].

Definition read_ts (F : fmt) (cur : dhdr) (t pl : N) : dhdr :=
  match F with
  | Full => hdr_with_field (hdr_with_ts cur t) t
  | Empty => if pl =? 0 then hdr_with_ts cur (add_values (d_ts cur) (d_field cur)) else cur
  | _ => hdr_with_field (hdr_with_ts cur (add_values (d_ts cur) t)) t
  end.
Definition read_len (F : fmt) (cur : dhdr) (l : N) : dhdr := match F with Full | NoSid => hdr_with_len cur l | _ => cur end.
Definition read_tid (F : fmt) (cur : dhdr) (ti : N) : dhdr := match F with Full | NoSid => hdr_with_tid cur ti | _ => cur end.
Definition read_sid (F : fmt) (cur : dhdr) (si : N) : dhdr := match F with Full => hdr_with_sid cur si | _ => cur end.
Definition read_xts (F : fmt) (cur : dhdr) (fld pl : N) : dhdr :=
  if 16777215 <=? fld then
    match F with
    | Full => hdr_with_ts cur fld
    | _ => if pl =? 0 then hdr_with_ts cur (add_values (d_ts cur) (sub_values fld 16777215)) else cur
    end
  else cur.

Definition read_hdr (F : fmt) (cur : dhdr) (t l ti si fld pl : N) : dhdr :=
  read_xts F (read_sid F (read_tid F (read_len F (read_ts F cur t pl) l) ti) si) fld pl.

Lemma st2 max F cur t B prev part : t < 16777216 ->
  run_stage (mk max F cur StInitialTimestamp (ts_bytes F t ++ B) prev part) =
  Ok (Success, mk max F (read_ts F cur t (plen cur part)) StMessageLength B prev part, None).
Proof.
  intros Ht. unfold run_stage, mk, get_initial_timestamp. cbn [d_stage d_fmt d_buf d_cur].
  destruct F; try reflexivity; cbn [ts_bytes]; rewrite (take_n_app_len (be24 t) B 3 eq_refl), (of_be_be24 t Ht); reflexivity.
Qed.

Lemma st3 max F cur l B prev part : l < 16777216 ->
  run_stage (mk max F cur StMessageLength (len_bytes F l ++ B) prev part) =
  Ok (Success, mk max F (read_len F cur l) StMessageTypeId B prev part, None).
Proof.
  intros Hl. unfold run_stage, mk, get_message_length. cbn [d_stage d_fmt d_buf d_cur].
  destruct F; try reflexivity; cbn [len_bytes]; rewrite (take_n_app_len (be24 l) B 3 eq_refl), (of_be_be24 l Hl); reflexivity.
Qed.

Lemma st4 max F cur ti B prev part :
  run_stage (mk max F cur StMessageTypeId (tid_bytes F ti ++ B) prev part) =
  Ok (Success, mk max F (read_tid F cur ti) StMessageStreamId B prev part, None).
Proof. destruct F; reflexivity. Qed.

Lemma st5 max F cur si B prev part : si < 4294967296 ->
  run_stage (mk max F cur StMessageStreamId (sid_bytes F si ++ B) prev part) =
  Ok (Success, mk max F (read_sid F cur si) StExtendedTimestamp B prev part, None).
Proof.
  intros Hs. unfold run_stage, mk, get_message_stream_id. cbn [d_stage d_fmt d_buf d_cur].
  destruct F; try reflexivity. cbn [sid_bytes]. rewrite (take_n_app_len (le32 si) B 4 eq_refl), (of_le_le32 si Hs). reflexivity.
Qed.

Lemma st6 max F cur fld B prev part : fld < 4294967296 -> d_field cur = N.min fld 16777215 ->
  run_stage (mk max F cur StExtendedTimestamp (xts_bytes fld ++ B) prev part) =
  Ok (Success, mk max F (read_xts F cur fld (plen cur part)) StMessagePayload B prev part, None).
Proof.
  intros Hf Hc. unfold run_stage, mk, get_extended_timestamp, xts_bytes, read_xts, DE_MAX_INITIAL_TIMESTAMP. cbn [d_stage d_fmt d_buf d_cur].
  rewrite Hc. destruct (16777215 <=? fld) eqn:E.
  - replace (N.min fld 16777215 <? 16777215) with false by lia.
    rewrite (take_n_app_len (be32 fld) B 4 eq_refl), (of_be_be32 fld Hf). destruct F; reflexivity.
  - replace (N.min fld 16777215 <? 16777215) with true by lia. reflexivity.
Qed.

Lemma st7_data max f cur old P B prev part :
  match lookup (d_csid cur) part with Some p => p | None => [] end = old ->
  lenN old <= d_len cur -> lenN P = N.min (d_len cur - lenN old) max ->
  run_stage (mk max f cur StMessagePayload (P ++ B) prev part) =
  Ok (Success,
      mk max f dhdr_new StCsid B (insert (d_csid cur) cur prev)
         (if lenN (old ++ P) =? d_len cur then remove (d_csid cur) part else insert (d_csid cur) (old ++ P) part),
      if lenN (old ++ P) =? d_len cur then Some {| m_ts := d_ts cur; m_tid := d_tid cur; m_sid := d_sid cur; m_data := old ++ P |} else None).
Proof.
  intros <- Hle HP. unfold run_stage, mk. cbn [d_stage]. unfold get_message_data, partial_len. cbn [d_cur d_buf d_max d_partial d_prev d_fmt].
  unfold bytes in *. destruct (lookup (d_csid cur) part) as [p|]; cbv beta iota in *.
  - replace (d_len cur <? lenN p) with false by lia. rewrite (take_n_app_len P B _ (eq_sym HP)). reflexivity.
  - change (lenN (@nil N)) with 0 in *. replace (d_len cur <? 0) with false by lia. rewrite (take_n_app_len P B _ (eq_sym HP)). reflexivity.
Qed.

Inductive steps : dstate -> dstate -> Prop :=
| steps_refl st : steps st st
| steps_cons st st1 st2 : run_stage st = Ok (Success, st1, None) -> steps st1 st2 -> steps st st2.

Lemma G_step st st' : run_stage st = Ok (Success, st', None) -> G st = G st'.
Proof. intros H. rewrite G_unfold, H. reflexivity. Qed.

Lemma G_steps a b : steps a b -> G a = G b.
Proof. induction 1 as [|st st1 st2 H _ IH]; [reflexivity|]. rewrite (G_step _ _ H). exact IH. Qed.

Lemma G_msg st r st' m : run_stage st = Ok (r, st', Some m) -> G st = (st', DMsg m).
Proof. intros H. rewrite G_unfold, H. reflexivity. Qed.

(* The deserializer's entries for chunk stream k against the spec decoder's chunk stream s: the header it remembers is
   that of s, with the timestamp field capped at 0xFFFFFF (what the 3-byte field carries) where s keeps the whole field, and it stores a partial
   payload exactly while s is inside a message. *)
Definition hdr_of (k : N) (s : cstream) : dhdr :=
  {| d_csid := k; d_ts := cs_ts s; d_field := N.min (cs_field s) 16777215; d_len := cs_len s; d_tid := cs_tid s; d_sid := cs_sid s |}.

Definition rel_at (k : N) (os : option cstream) (prev : list (N * dhdr)) (part : list (N * bytes)) : Prop :=
  match os with
  | Some s => lookup k prev = Some (hdr_of k s) /\ lookup k part = (if in_message s then Some (cs_partial s) else None) /\
              cs_ts s < 4294967296 /\ cs_field s < 4294967296
  | None => lookup k prev = None /\ lookup k part = None
  end.

Definition Rel (sd : sdec_state) (dst : dstate) : Prop :=
  d_stage dst = StCsid /\ d_max dst = sd_max sd /\ 1 <= sd_max sd /\
  forall k, rel_at k (lookup k (sd_cs sd)) (d_prev dst) (d_partial dst).

Lemma header_after_fmt0 os c s1 :
  c_fmt c = 0 -> header_after os c = Some s1 ->
  cs_ts s1 = c_field c /\ cs_field s1 = c_field c /\ cs_len s1 = c_len c /\ cs_tid s1 = c_tid c /\ cs_sid s1 = c_sid c /\
  cs_partial s1 = match os with Some s => cs_partial s | None => [] end.
Proof.
  intros Hf H. unfold header_after in H. rewrite Hf in H.
  change (0 =? 3) with false in H. change (0 =? 0) with true in H. cbv iota in H.
  destruct os as [s|].
  - destruct (in_message s) eqn:Em.
    + destruct ((c_field c =? cs_ts s) && (c_len c =? cs_len s) && (c_tid c =? cs_tid s) && (c_sid c =? cs_sid s)) eqn:E; [|discriminate].
      injection H as <-. cbn. repeat split; lia.
    + injection H as <-. cbn. repeat split. unfold in_message in Em. destruct (cs_partial s); [reflexivity|discriminate].
  - injection H as <-. cbn. repeat split.
Qed.

Lemma lookup_same_or_removed {A} k k' (m : list (N * A)) : k' <> k -> lookup k' (remove k m) = lookup k' m.
Proof. apply lookup_remove_other. Qed.

Lemma not_in_message_nil s : in_message s = false -> cs_partial s = [].
Proof. unfold in_message. destruct (cs_partial s); [reflexivity|discriminate]. Qed.

Lemma in_message_len s : in_message s = true -> lenN (cs_partial s) <> 0.
Proof. unfold in_message. destruct (cs_partial s); [discriminate|]. intros _. rewrite lenN_cons. lia. Qed.

Lemma ts_delta_small a t : add_values a t = tadd a t.
Proof. reflexivity. Qed.

Lemma hdr_eq h k s :
  d_csid h = k -> d_ts h = cs_ts s -> d_field h = N.min (cs_field s) 16777215 -> d_len h = cs_len s -> d_tid h = cs_tid s ->
  d_sid h = cs_sid s -> h = hdr_of k s.
Proof. destruct h. cbn. intros -> -> -> -> -> ->. reflexivity. Qed.

(* computes the fields of a header built by the stage updates, for the side conditions of hdr_eq *)
Ltac hdr_norm :=
  cbn [read_ts read_len read_tid read_sid hdr_with_ts hdr_with_sid hdr_with_tid hdr_with_len hdr_with_field hdr0 hdr_of
       d_csid d_ts d_field d_len d_tid d_sid cs_ts cs_field cs_len cs_tid cs_sid cs_partial].

Lemma header_after_fmt12 os c s1 : c_fmt c = 1 \/ c_fmt c = 2 -> header_after os c = Some s1 ->
  exists s, os = Some s /\ in_message s = false /\
    s1 = {| cs_ts := tadd (cs_ts s) (c_field c); cs_field := c_field c;
            cs_len := if c_fmt c =? 1 then c_len c else cs_len s; cs_tid := if c_fmt c =? 1 then c_tid c else cs_tid s;
            cs_sid := cs_sid s; cs_partial := [] |}.
Proof.
  intros Hf H. unfold header_after in H. destruct os as [s|]; [|destruct Hf as [Hf|Hf]; rewrite Hf in H; discriminate].
  exists s. destruct (in_message s); destruct Hf as [Hf|Hf]; rewrite Hf in *; cbn [N.eqb Pos.eqb] in *; try discriminate;
    injection H as <-; repeat split.
Qed.

(* the delta formats add the 32-bit delta to the timestamp, in one step or as 0xFFFFFF plus the rest *)
Lemma delta_ts a fld : a < 4294967296 -> fld < 4294967296 ->
  (if 16777215 <=? fld then add_values (add_values a (N.min fld 16777215)) (sub_values fld 16777215)
   else add_values a (N.min fld 16777215)) = tadd a fld.
Proof.
  intros Ha Hf. destruct (16777215 <=? fld) eqn:E.
  - unfold add_values, sub_values, tadd, two32. lia.
  - replace (N.min fld 16777215) with fld by lia. reflexivity.
Qed.

Lemma header_run max F cur t l ti si fld B prev part :
  t < 16777216 -> l < 16777216 -> si < 4294967296 -> fld < 4294967296 ->
  match F with Empty => d_field cur | _ => t end = N.min fld 16777215 ->
  let pl := plen cur part in
  steps (mk max F cur StInitialTimestamp (ts_bytes F t ++ len_bytes F l ++ tid_bytes F ti ++ sid_bytes F si ++ xts_bytes fld ++ B) prev part)
        (mk max F (read_hdr F cur t l ti si fld pl) StMessagePayload B prev part).
Proof.
  intros Ht Hl Hs Hf Hfld pl.
  eapply steps_cons; [apply st2; exact Ht|]. eapply steps_cons; [apply st3; exact Hl|]. eapply steps_cons; [apply st4|].
  eapply steps_cons; [apply st5; exact Hs|]. fold pl.
  (* the header being read keeps its chunk stream id and, in format 3, its timestamp field *)
  set (cur5 := read_sid F _ si).
  assert (H5 : plen cur5 part = pl /\ d_field cur5 = N.min fld 16777215).
  { subst cur5. destruct F; cbn [read_ts read_len read_tid read_sid]; try (split; [reflexivity|exact Hfld]).
    destruct (pl =? 0); split; [reflexivity|exact Hfld|reflexivity|exact Hfld]. }
  destruct H5 as [H5 H6]. eapply steps_cons; [apply st6; [exact Hf|exact H6]|]. rewrite H5. apply steps_refl.
Qed.

Lemma header_bytes c B : c_fmt c <= 3 ->
  fixed_bytes c ++ ext_bytes c ++ B =
  let F := fmt_of (c_fmt c) in
  ts_bytes F (N.min (c_field c) 16777215) ++ len_bytes F (c_len c) ++ tid_bytes F (c_tid c) ++ sid_bytes F (c_sid c) ++ xts_bytes (c_field c) ++ B.
Proof.
  intros Hf. assert (Hc : c_fmt c = 0 \/ c_fmt c = 1 \/ c_fmt c = 2 \/ c_fmt c = 3) by lia.
  unfold fixed_bytes, ext_bytes. fold (xts_bytes (c_field c)).
  destruct Hc as [-> | [-> | [-> | ->]]]; cbn [N.eqb Pos.eqb fmt_of ts_bytes len_bytes tid_bytes sid_bytes app]; rewrite <- ?app_assoc; reflexivity.
Qed.

Lemma idec_header os c s1 max f cur prev part B :
  wf_facts c -> rel_at (c_csid c) os prev part -> header_after os c = Some s1 ->
  exists prev5,
    steps (mk max f cur StCsid (basic_header_bytes (c_fmt c) (c_csid c) (c_form c) ++ fixed_bytes c ++ ext_bytes c ++ B) prev part)
          (mk max (fmt_of (c_fmt c)) (hdr_of (c_csid c) s1) StMessagePayload B prev5 part) /\
    (forall k, k <> c_csid c -> lookup k prev5 = lookup k prev) /\
    cs_ts s1 < 4294967296 /\ cs_field s1 < 4294967296 /\
    cs_partial s1 = match os with Some s => cs_partial s | None => [] end.
Proof.
  intros [Hf [Hform [Hfield [Hlen [Htid Hsid]]]]] Hrel Hh. rewrite (header_bytes c B Hf). cbv zeta.
  set (k := c_csid c) in *. set (F := fmt_of (c_fmt c)). set (t := N.min (c_field c) 16777215).
  assert (Hs : exists cur0 prev5, header_start F k prev = Some (cur0, prev5) /\
            (forall k', k' <> k -> lookup k' prev5 = lookup k' prev) /\
            match F with Empty => d_field cur0 | _ => t end = t /\
            read_hdr F cur0 t (c_len c) (c_tid c) (c_sid c) (c_field c) (plen cur0 part) = hdr_of k s1 /\
            cs_ts s1 < 4294967296 /\ cs_field s1 < 4294967296 /\
            cs_partial s1 = match os with Some s => cs_partial s | None => [] end).
  { assert (Hc : c_fmt c = 0 \/ (c_fmt c = 1 \/ c_fmt c = 2) \/ c_fmt c = 3) by lia.
    destruct Hc as [Hc | Hc].
    - (* format 0 stands on its own *)
      destruct (header_after_fmt0 os c s1 Hc Hh) as [E1 [E2 [E3 [E4 [E5 E6]]]]]. subst F. rewrite Hc. cbn [fmt_of].
      exists (hdr0 k), prev. repeat (split; [reflexivity|]). split; [|split; [lia|split; [lia|exact E6]]].
      unfold read_hdr, read_xts. destruct (16777215 <=? c_field c) eqn:Ex; apply hdr_eq; hdr_norm; lia.
    - (* the other formats start from the header the chunk stream had, which the decoder holds as s *)
      destruct os as [s|]; [|unfold header_after in Hh; replace (c_fmt c =? 0) with false in Hh by lia; discriminate].
      destruct Hrel as [Hp [Hpart [Hts Hfl]]].
      assert (Hplen : plen (hdr_of k s) part = lenN (cs_partial s)).
      { unfold plen. cbn [d_csid hdr_of]. unfold bytes in *. rewrite Hpart. destruct (in_message s) eqn:Him; [reflexivity|].
        rewrite (not_in_message_nil s Him). reflexivity. }
      exists (hdr_of k s), (remove k prev). rewrite Hplen. unfold header_start. rewrite Hp.
      split; [destruct Hc as [[Hc|Hc]|Hc]; subst F; rewrite Hc; reflexivity|].
      split; [intros k' Hk; apply lookup_remove_other; exact Hk|]. unfold read_hdr, read_xts.
      destruct Hc as [Hc | Hc].
      + destruct (header_after_fmt12 _ c s1 Hc Hh) as [s' [Es [Him ->]]]. injection Es as <-. rewrite (not_in_message_nil s Him).
        destruct Hc as [Hc | Hc]; subst F; rewrite Hc; cbn [fmt_of N.eqb Pos.eqb read_ts read_len read_tid read_sid].
        all: split; [reflexivity|]. all: split; [|hdr_norm; split; [unfold tadd; lia|split; [lia|reflexivity]]].
        all: change (lenN (@nil N) =? 0) with true; cbv iota.
        all: destruct (16777215 <=? c_field c) eqn:Ex; apply hdr_eq; hdr_norm; try reflexivity.
        all: rewrite <- (delta_ts (cs_ts s) (c_field c) Hts Hfield), Ex; reflexivity.
      + destruct (header_after_fmt3 _ c s1 Hc Hh) as [s' [Es [Hm Hs1]]]. injection Es as <-. subst F. rewrite Hc.
        cbn [fmt_of read_ts read_len read_tid read_sid]. split; [symmetry; exact Hm|].
        destruct (in_message s) eqn:Him.
        * subst s1. replace (lenN (cs_partial s) =? 0) with false by (pose proof (in_message_len s Him); lia).
          split; [destruct (16777215 <=? c_field c); reflexivity|repeat split; assumption].
        * destruct Hs1 as [Ecf ->]. rewrite Ecf, (not_in_message_nil s Him). change (lenN (@nil N) =? 0) with true. cbv iota.
          split; [|hdr_norm; split; [unfold tadd; lia|split; [lia|reflexivity]]].
          destruct (16777215 <=? cs_field s) eqn:Ex; apply hdr_eq; hdr_norm; try reflexivity.
          all: rewrite <- (delta_ts (cs_ts s) (cs_field s) Hts Hfl), Ex; reflexivity. }
  destruct Hs as [cur0 [prev5 [Hst [Hoth [Hfld [<- Hrest]]]]]]. exists prev5. split; [|split; [exact Hoth|exact Hrest]].
  eapply steps_cons; [apply st1; [exact Hf|exact Hform|exact Hst]|].
  apply header_run; try assumption. subst t. lia.
Qed.

Lemma idec_chunk sd c sd' om max f cur prev part rest :
  Rel sd (mk max f cur StCsid (emit_chunk c ++ rest) prev part) ->
  dec_chunk sd c = Some (sd', om) ->
  exists f' prev' part',
    let dst' := mk max f' dhdr_new StCsid rest prev' part' in
    Rel sd' dst' /\
    G (mk max f cur StCsid (emit_chunk c ++ rest) prev part) = match om with Some m => (dst', DMsg m) | None => G dst' end.
Proof.
  intros [_ [Hmax [Hpos Hrel]]] Hd. cbn [d_max d_prev d_partial mk] in Hmax, Hrel.
  apply dec_chunk_spec in Hd. destruct Hd as [s1 [Hwf [Hh [Hle [Hpl [-> ->]]]]]].
  destruct (chunk_wf_inv c Hwf) as [Hfacts _].
  destruct (idec_header _ c s1 max f cur prev part (c_payload c ++ rest) Hfacts (Hrel (c_csid c)) Hh)
    as [prev5 [Hsteps [Hother [Hts [Hfl Hpart1]]]]].
  rewrite emit_chunk_eq. rewrite <- !app_assoc. rewrite (G_steps _ _ Hsteps).
  assert (Hold : match lookup (c_csid c) part with Some p => p | None => [] end = cs_partial s1).
  { rewrite Hpart1. pose proof (Hrel (c_csid c)) as Hr. unfold rel_at in Hr.
    destruct (lookup (c_csid c) (sd_cs sd)) as [s|].
    - destruct Hr as [_ [Hr _]]. unfold bytes in *. rewrite Hr. destruct (in_message s) eqn:Him; [reflexivity|].
      symmetry. apply not_in_message_nil. exact Him.
    - destruct Hr as [_ Hr]. unfold bytes in *. rewrite Hr. reflexivity. }
  pose proof (st7_data max (fmt_of (c_fmt c)) (hdr_of (c_csid c) s1) _ (c_payload c) rest prev5 part Hold) as H7.
  cbn [d_csid d_len d_ts d_tid d_sid hdr_of] in H7. unfold expected_payload in Hpl. specialize (H7 ltac:(lia) ltac:(lia)). cbv zeta.
  set (data := cs_partial s1 ++ c_payload c) in *.
  exists (fmt_of (c_fmt c)), (insert (c_csid c) (hdr_of (c_csid c) s1) prev5),
    (if lenN data =? cs_len s1 then remove (c_csid c) part else insert (c_csid c) data part).
  split; [|destruct (lenN data =? cs_len s1); [exact (G_msg _ _ _ _ H7)|exact (G_step _ _ H7)]].
  split; [reflexivity|split; [exact Hmax|split; [exact Hpos|]]]. cbn [sd_cs d_prev d_partial mk].
  intros k. destruct (N.eq_dec k (c_csid c)) as [-> | Hk].
  - unfold rel_at. rewrite !lookup_insert_same. cbn [cs_ts cs_field with_partial]. split; [reflexivity|]. split; [|split; assumption].
    destruct (lenN data =? cs_len s1) eqn:Hc; [apply lookup_remove_same|]. rewrite lookup_insert_same.
    (* an incomplete message has received something: the chunk size is at least 1 *)
    destruct data as [|d0 dr] eqn:Ed; [|reflexivity].
    apply app_eq_nil in Ed. destruct Ed as [N1 N2]. rewrite N1, N2 in *. change (lenN (@nil N)) with 0 in *. lia.
  - (* the other chunk streams keep their entries *)
    unfold rel_at. rewrite !(lookup_insert_other _ _ _ _ Hk), (Hother k Hk).
    destruct (lenN data =? cs_len s1); [rewrite (lookup_remove_other _ _ _ Hk)|rewrite (lookup_insert_other _ _ _ _ Hk)]; apply Hrel.
Qed.

Lemma control_refines sd m sd2 max f cur buf prev part :
  Rel sd (mk max f cur StCsid buf prev part) -> apply_control sd m = Some sd2 ->
  exists max2, driver_apply (mk max f cur StCsid buf prev part) m = Ok (mk max2 f cur StCsid buf prev part) /\
               Rel sd2 (mk max2 f cur StCsid buf prev part).
Proof.
  intros [Hs [Hmax [Hpos Hrel]]] Ha. unfold apply_control in Ha. unfold driver_apply.
  destruct (m_tid m =? 1).
  - destruct (take_n (m_data m) 4) as [[b r]|]; [|discriminate].
    destruct ((1 <=? of_be b) && (of_be b <=? 2147483647)) eqn:E; [|discriminate]. injection Ha as <-.
    unfold de_set_max_chunk_size. replace ((of_be b =? 0) || (2147483647 <? of_be b)) with false by lia.
    exists (of_be b). split; [reflexivity|]. split; [reflexivity|split; [reflexivity|split; [cbn [sd_max]; lia|exact Hrel]]].
  - injection Ha as <-. exists max. split; [reflexivity|]. split; [exact Hs|split; [exact Hmax|split; [exact Hpos|exact Hrel]]].
Qed.

Lemma blocked_empty max f cur prev part :
  G (mk max f cur StCsid [] prev part) = (mk max f cur StCsid [] prev part, DNone).
Proof. apply G_blocked. reflexivity. Qed.

Theorem idec_run cs : forall sd sd' ms max f cur prev part acc,
  Rel sd (mk max f cur StCsid (concat (map emit_chunk cs)) prev part) ->
  sdec_run sd cs = Some (sd', ms) ->
  exists dst', drains (mk max f cur StCsid (concat (map emit_chunk cs)) prev part) acc dst' (acc ++ ms) None /\
               Rel sd' dst' /\ d_buf dst' = [].
Proof.
  induction cs as [|c r IH]; intros sd sd' ms max f cur prev part acc HR Hrun.
  - cbn [sdec_run] in Hrun. injection Hrun as <- <-. cbn [map concat] in *.
    eexists. split; [|split; [exact HR|reflexivity]]. rewrite app_nil_r. apply dr_none. rewrite gnm_nil. apply blocked_empty.
  - cbn [sdec_run] in Hrun. cbn [map concat] in *.
    destruct (dec_chunk sd c) as [[sd1 om]|] eqn:Hd; [|discriminate].
    destruct (idec_chunk sd c sd1 om max f cur prev part _ HR Hd) as [f1 [prev1 [part1 [HR1 HG]]]]. cbv zeta in HR1, HG.
    destruct om as [m|].
    + destruct (apply_control sd1 m) as [sd2|] eqn:Ha; [|discriminate].
      destruct (sdec_run sd2 r) as [[sd3 ms']|] eqn:Hr; [|discriminate]. injection Hrun as <- <-.
      destruct (control_refines _ _ _ _ _ _ _ _ _ HR1 Ha) as [max2 [Hdrv HR2]].
      destruct (IH _ _ _ _ _ _ _ _ (acc ++ [m]) HR2 Hr) as [dst' [D [HR3 Hb]]].
      exists dst'. split; [|split; assumption].
      rewrite <- app_assoc in D. cbn [app] in D.
      eapply dr_msg; [rewrite gnm_nil; exact HG|exact Hdrv|exact D].
    + destruct (IH _ _ _ _ _ _ _ _ acc HR1 Hrun) as [dst' [D [HR3 Hb]]].
      exists dst'. split; [|split; assumption]. apply (drains_G_eq _ _ _ _ _ _ HG D).
Qed.

Lemma Rel_init : Rel sdec_init de_init.
Proof.
  split; [reflexivity|split; [reflexivity|split; [cbn; lia|]]]. intros k. cbn. split; reflexivity.
Qed.

(* C06 / C16: any byte stream that the specification decoder reads as the records cs carrying the messages ms
   (whatever the chunk stream ids, formats, chunk sizes and interleaving the peer chose) makes the library's
   deserializer return exactly ms, in order, without error, however the bytes are split into input calls. *)
Theorem idec_refines_sdec cs sd' ms pieces s1 ms1 r1 :
  sdec_run sdec_init cs = Some (sd', ms) ->
  concat pieces = concat (map emit_chunk cs) ->
  feeds de_init pieces [] s1 ms1 r1 -> ms1 = ms /\ r1 = None.
Proof.
  intros Hrun Hc F.
  destruct (idec_run cs sdec_init sd' ms DE_INITIAL_MAX_CHUNK_SIZE Full dhdr_new [] [] [] Rel_init Hrun) as [dst' [D _]].
  cbn [app] in D.
  assert (F2 : feeds de_init [concat (map emit_chunk cs)] [] dst' ms None).
  { eapply fd_ok; [exact D|apply fd_nil]. }
  apply (partition_independent de_init pieces [concat (map emit_chunk cs)] [] s1 ms1 r1 dst' ms None init_quiescent); [|exact F|exact F2].
  rewrite Hc. cbn [concat]. rewrite app_nil_r. reflexivity.
Qed.

Theorem feed_all_refines_sdec cs sd' ms pieces s1 ms1 r1 :
  sdec_run sdec_init cs = Some (sd', ms) ->
  concat pieces = concat (map emit_chunk cs) ->
  feed_all de_init pieces [] = (s1, ms1, r1) -> r1 <> Some DrvFuel -> ms1 = ms /\ r1 = None.
Proof.
  intros Hrun Hc F Hf. apply (idec_refines_sdec cs sd' ms pieces s1 ms1 r1 Hrun Hc). apply feed_all_sound; assumption.
Qed.
