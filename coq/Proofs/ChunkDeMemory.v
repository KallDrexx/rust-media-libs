(* C03 (allocation follows the input), model level: what the chunk deserializer stores - its input buffer plus the partial payloads
   of all chunk streams - never exceeds what it was fed minus what it has delivered.  Header bytes are dropped as they are parsed,
   payload bytes move from the buffer to the partial payload of their chunk stream and leave with the completed message. *)
From Coq Require Import ZArith Lia ZifyN ZifyBool ZifyNat.
From RML Require Import Model.Base Model.Chunk Model.ChunkDe Proofs.BaseProofs Proofs.ChunkDeStages Proofs.ChunkDeProofs.
Local Open Scope nat_scope.

Fixpoint sumlen (m : list (N * bytes)) : nat :=
  match m with [] => 0 | (_, p) :: r => length p + sumlen r end.

Definition stored (st : dstate) : nat := length (d_buf st) + sumlen (d_partial st).

Definition looklen (k : N) (m : list (N * bytes)) : nat := match lookup k m with Some p => length p | None => 0 end.

Lemma sumlen_remove k m : sumlen (remove k m) + looklen k m <= sumlen m.
Proof.
  unfold looklen. induction m as [|[k' p] r IH]; [cbn; lia|]. cbn [remove lookup sumlen].
  destruct (N.eqb k k'); cbn [sumlen]; lia.
Qed.

Definition outlen (om : option msg) : nat := match om with Some m => length (m_data m) | None => 0 end.

Lemma stored_set_stage st s : stored (set_stage st s) = stored st. Proof. reflexivity. Qed.

Lemma run_stage_memory st r st' om : run_stage st = Ok (r, st', om) -> stored st' + outlen om <= stored st.
Proof.
  intros H. destruct r; [|destruct (stage_blocked _ _ _ H) as [-> ->]; cbn [outlen]; lia].
  destruct (stage_eq_dec (d_stage st) StMessagePayload) as [Es|Es].
  - (* the bytes read join the partial payload of their chunk stream, or leave with the completed message *)
    rewrite run_stage_reader in H by (rewrite Es; discriminate).
    destruct (overrun st); [discriminate|]. destruct (take_n (d_buf st) (need st)) as [[b rest]|] eqn:Et; [|discriminate].
    injection H as <- <-. destruct (take_n_length _ _ _ _ Et) as [Hb _].
    pose proof (sumlen_remove (d_csid (d_cur st)) (d_partial st)) as Hr. unfold looklen in Hr.
    unfold stored, after, emitted, payload. rewrite Es, Hb. cbn [d_buf d_partial]. rewrite app_length.
    destruct (lookup (d_csid (d_cur st)) (d_partial st)) as [old|]; destruct (N.eqb _ _);
      cbn [outlen m_data sumlen insert List.app]; rewrite ?app_length; lia.
  - destruct (stage_consumes _ _ _ H) as [b [Hb [_ [_ Hom]]]]. destruct (Hom Es) as [-> Hp].
    unfold stored. rewrite Hb, Hp, app_length. cbn [outlen]. lia.
Qed.

Lemma stage_loop_memory fuel : forall st st' r, stage_loop fuel st = (st', r) ->
  stored st' + match r with DMsg m => length (m_data m) | _ => 0 end <= stored st.
Proof.
  induction fuel as [|f IH]; intros st st' r H; cbn [stage_loop] in H.
  - injection H; intros; subst. lia.
  - destruct (run_stage st) as [[[res st1] om]|e|x|] eqn:E; try (injection H; intros; subst; lia).
    pose proof (run_stage_memory _ _ _ _ E) as Hm.
    destruct om as [m|]; [injection H; intros; subst; cbn [outlen] in Hm; lia|]. cbn [outlen] in Hm.
    destruct res; [|injection H; intros; subst; lia]. specialize (IH _ _ _ H). lia.
Qed.

Theorem get_next_message_memory st input st' r : get_next_message st input = (st', r) ->
  stored st' + match r with DMsg m => length (m_data m) | _ => 0 end <= stored st + length input.
Proof.
  unfold get_next_message. cbv zeta. intros H. pose proof (stage_loop_memory _ _ _ _ H) as Hm.
  unfold stored in *. cbn [d_buf d_partial set_buf] in Hm. rewrite app_length in Hm. lia.
Qed.

Theorem stored_init : stored de_init = 0.
Proof. reflexivity. Qed.

Fixpoint paylen (ms : list msg) : nat := match ms with [] => 0 | m :: r => length (m_data m) + paylen r end.
Lemma paylen_app a b : paylen (a ++ b) = paylen a + paylen b.
Proof. induction a as [|m a IH]; [reflexivity|]. cbn [List.app paylen]. lia. Qed.

Lemma driver_apply_stored st m st' : driver_apply st m = Ok st' -> stored st' = stored st.
Proof.
  destruct (driver_apply_spec m) as [H|[[n H]|H]]; rewrite H; [| |discriminate]; intros E; injection E as <-; reflexivity.
Qed.

Lemma drain_memory fuel : forall st acc st' ms r, drain fuel st acc = (st', ms, r) -> stored st' + paylen ms <= stored st + paylen acc.
Proof.
  induction fuel as [|f IH]; intros st acc st' ms r H; cbn [drain] in H.
  - injection H; intros; subst. lia.
  - destruct (get_next_message st []) as [st1 res] eqn:G. pose proof (get_next_message_memory _ _ _ _ G) as Hm. cbn [length] in Hm.
    destruct res as [m| |e|]; try (injection H; intros; subst; lia).
    destruct (driver_apply st1 m) as [st2|e|x|] eqn:D; [|injection H; intros; subst; rewrite paylen_app; cbn [paylen]; lia..].
    specialize (IH _ _ _ _ _ H). rewrite paylen_app in IH. cbn [paylen] in IH. rewrite (driver_apply_stored _ _ _ D) in IH. lia.
Qed.

(* the documented driving loop over any sequence of input pieces, from any state, whether the run completes or stops at an error *)
Theorem feed_all_memory pieces : forall st acc st' ms r, feed_all st pieces acc = (st', ms, r) ->
  stored st' + paylen ms <= stored st + paylen acc + length (concat pieces).
Proof.
  induction pieces as [|p rest IH]; intros st acc st' ms r H; cbn [feed_all] in H.
  - injection H; intros; subst. cbn. lia.
  - destruct (feed st p acc) as [[st1 ms1] r1] eqn:F. unfold feed in F. pose proof (drain_memory _ _ _ _ _ _ F) as Hd.
    assert (Hs : stored (set_buf st (d_buf st ++ p)) = stored st + length p) by (unfold stored; cbn [d_buf d_partial set_buf]; rewrite app_length; lia).
    cbn [concat]. rewrite app_length.
    destruct r1 as [e|]; [injection H; intros; subst; lia|]. specialize (IH _ _ _ _ _ H). lia.
Qed.

Corollary history_memory pieces st' ms r : feed_all de_init pieces [] = (st', ms, r) ->
  stored st' + paylen ms <= length (concat pieces).
Proof. intros H. pose proof (feed_all_memory _ _ _ _ _ _ H) as Hm. cbn [paylen] in Hm. rewrite stored_init in Hm. lia. Qed.
