(* C19: configuration values are honoured or refused; the slicing loop terminates. *)
From Coq Require Import ZArith Lia ZifyN ZifyBool ZifyNat.
From RML Require Import Model.Base Model.Chunk Model.ChunkSer Model.ChunkDe Model.SessionCommon Model.Server
  Gen.Consts Proofs.BaseProofs Proofs.ChunkSerProofs.
Local Open Scope N_scope.

(* the slicing loop of serialize(): with a chunk size >= 1 the fuel |data| always suffices; with chunk size 0 it never does *)
Lemma slices_terminates max : 1 <= max -> forall fuel data, (length data <= fuel)%nat -> exists sl, slices fuel max data = Some sl.
Proof.
  intros Hmax. induction fuel as [|f IH]; intros data Hlen.
  - destruct data; [exists []; reflexivity|cbn in Hlen; lia].
  - destruct data as [|x l]; [exists []; reflexivity|]. cbn [slices].
    destruct (split_at max (x :: l)) as [a b] eqn:E. destruct (split_at_spec _ _ _ _ E) as [Hl Ha]. rewrite lenN_cons in Ha.
    (* the slice is not empty, so less remains *)
    assert (Hp : (length b < length (x :: l))%nat) by (rewrite Hl, app_length; unfold lenN in Ha; lia).
    destruct (IH b ltac:(cbn [length] in *; lia)) as [r Hr]. rewrite Hr. eexists; reflexivity.
Qed.

Lemma slices_zero_never fuel x l : slices fuel 0 (x :: l) = None.
Proof.
  induction fuel as [|f IH]; [reflexivity|]. cbn [slices split_at]. change (0 =? 0) with true. cbv iota. rewrite IH. reflexivity.
Qed.

(* add_chunk / add_chunks never fail (the csid guard cannot fire) *)
Lemma add_chunks_ok sl : forall st force m idx drop, exists bs st', add_chunks st force m idx sl drop = Ok (bs, st') /\ s_max st' = s_max st.
Proof.
  induction sl as [|a r IH]; intros st force m idx drop; [eexists; eexists; split; reflexivity|].
  cbn [add_chunks]. rewrite add_chunk_emit. cbv zeta. destruct (decide_header st force m (0 <? idx) drop) as [f h]. cbn [obind].
  destruct (IH {| s_prev := insert (get_csid_for_message_type (m_tid m)) h (s_prev st); s_max := s_max st |} force m (idx + 1) drop) as [bs [st' [E Hm]]].
  rewrite E. cbn [obind]. eexists; eexists; split; [reflexivity|exact Hm].
Qed.

(* serialize: refused exactly above 16,777,215 bytes; otherwise (chunk size >= 1) it succeeds, keeping the chunk size *)
Theorem serialize_refused_or_ok st m force drop :
  1 <= s_max st ->
  (16777215 < lenN (m_data m) -> serialize st m force drop = Err (MessageTooLong (lenN (m_data m) mod two32))) /\
  (lenN (m_data m) <= 16777215 -> exists b st', serialize st m force drop = Ok (b, st') /\ s_max st' = s_max st).
Proof.
  intros Hmax. unfold serialize. split; intros H.
  - replace (16777215 <? lenN (m_data m)) with true by lia. reflexivity.
  - replace (16777215 <? lenN (m_data m)) with false by lia.
    destruct (slices_terminates (s_max st) Hmax (length (m_data m)) (m_data m) (le_n _)) as [sl Hsl]. rewrite Hsl.
    cbv zeta. set (sl' := match sl with [] => [[]] | _ :: _ => sl end).
    destruct (add_chunks_ok sl' st force m 0 drop) as [bs [st' [E Hm]]].
    rewrite E. cbn [obind]. eexists; eexists; split; [reflexivity|exact Hm].
Qed.

(* set_max_chunk_size: refused exactly for 0 and above 2^31-1, on both sides *)
Theorem ser_chunk_size_refused st n ts :
  1 <= s_max st ->
  ((n = 0 \/ 2147483647 < n) -> set_max_chunk_size st n ts = Err (InvalidMaxChunkSize n)) /\
  (1 <= n <= 2147483647 -> exists b st', set_max_chunk_size st n ts = Ok (b, st') /\ s_max st' = n).
Proof.
  intros Hmax. unfold set_max_chunk_size. split; intros H.
  - replace ((n =? 0) || (2147483647 <? n)) with true by lia. reflexivity.
  - replace ((n =? 0) || (2147483647 <? n)) with false by lia.
    set (m := {| m_ts := ts; m_tid := TID_SetChunkSize; m_sid := 0; m_data := be32 n |}).
    destruct (serialize_refused_or_ok st m true false Hmax) as [_ Hok].
    destruct (Hok ltac:(cbn; lia)) as [b [st' [E _]]]. rewrite E. cbn [obind]. eexists; eexists; split; reflexivity.
Qed.

Theorem de_chunk_size_refused st n :
  ((n = 0 \/ 2147483647 < n) -> de_set_max_chunk_size st n = Err (DeInvalidMaxChunkSize n)) /\
  (1 <= n <= 2147483647 -> exists st', de_set_max_chunk_size st n = Ok st' /\ d_max st' = n).
Proof.
  unfold de_set_max_chunk_size. split; intros H.
  - replace ((n =? 0) || (2147483647 <? n)) with true by lia. reflexivity.
  - replace ((n =? 0) || (2147483647 <? n)) with false by lia. eexists; split; reflexivity.
Qed.

(* the chunk size of every reachable serializer state is >= 1, so serialize always terminates *)
Theorem ser_max_positive ops : forall st packets st', 1 <= s_max st -> ser_run st ops = Ok (packets, st') -> 1 <= s_max st'.
Proof.
  intros st packets st' Hm H.
  apply (ser_run_inv (fun _ => True) (fun st => 1 <= s_max st) (fun _ => True)) in H;
    [tauto| |apply Forall_forall; intros; exact I|exact Hm].
  clear. intros st op b st' _ Hm E. split; [exact I|]. destruct op as [m f d|n ts]; cbn [ser_step] in E.
  - destruct (serialize_refused_or_ok st m f d Hm) as [Herr Hok].
    destruct (N.le_gt_cases (lenN (m_data m)) 16777215) as [Hl|Hl]; [|rewrite (Herr Hl) in E; discriminate].
    destruct (Hok Hl) as [b' [st'' [E' Hs]]]. rewrite E in E'. injection E' as <- <-. lia.
  - unfold set_max_chunk_size in E. destruct ((n =? 0) || (2147483647 <? n)) eqn:En; [discriminate|].
    apply obind_ok in E. destruct E as [[b1 st1] [_ E]]. injection E as <- <-. cbn [s_max]. lia.
Qed.

Lemma ser_init_max : 1 <= s_max ser_init.
Proof. unfold ser_init, SER_INITIAL_MAX_CHUNK_SIZE. cbn. lia. Qed.

Theorem server_config_chunk_refused c clock :
  (cfg_chunk c = 0 \/ 2147483647 < cfg_chunk c) ->
  snd (server_new c clock) = RErr (SWire (WChunkSer (InvalidMaxChunkSize (cfg_chunk c)))).
Proof.
  intros H. unfold server_new. cbn [sv_ser].
  destruct (ser_chunk_size_refused ser_init (cfg_chunk c) 0 ser_init_max) as [Hr _]. rewrite (Hr H). reflexivity.
Qed.
