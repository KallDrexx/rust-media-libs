(* C14 / C03: the AMF0 decoder terminates on every input (the fuel length+1 always suffices), consumes input
   monotonically, and what it builds is bounded by the bytes it consumed. *)
From Coq Require Import ZArith Lia ZifyN ZifyBool ZifyNat.
From RML Require Import Model.Base Model.Utf8 Model.Amf0 Gen.Consts Proofs.BaseProofs Proofs.Amf0Proofs.
Local Open Scope N_scope.

(* size of a decoded value: one unit per node plus the bytes of its strings and property names *)
Fixpoint vsize (v : value) : nat :=
  match v with
  | VString s => S (length s)
  | VObject ps => S (fold_right (fun p n => (length (fst p) + vsize (snd p) + n)%nat) O ps)
  | VStrictArray vs => S (fold_right (fun x n => (vsize x + n)%nat) O vs)
  | _ => 1%nat
  end.
Definition psize (ps : list (bytes * value)) : nat := fold_right (fun p n => (length (fst p) + vsize (snd p) + n)%nat) O ps.
Definition lsize (vs : list value) : nat := fold_right (fun x n => (vsize x + n)%nat) O vs.

Lemma take_n_okp {A} (Q : A -> Prop) l n (k : bytes * bytes -> res A) :
  (forall a b, length l = (length a + length b)%nat -> lenN a = n -> okp Q (k (a, b))) ->
  okp Q (match take_n l n with None => Err BufferReadError | Some x => k x end).
Proof.
  intros H. destruct (take_n l n) as [[a b]|] eqn:E; [|exact I].
  destruct (take_n_length l n a b E) as [-> L]. apply H; [apply app_length|exact L].
Qed.

Lemma map_insert_size k v m : (psize (map_insert k v m) <= psize m + length k + vsize v)%nat.
Proof.
  induction m as [|[k' v'] r IH]; cbn [map_insert psize fold_right fst snd]; [lia|].
  destruct (list_eq_dec N.eq_dec k k'); cbn [psize fold_right fst snd]; fold (psize r) in *; fold (psize (map_insert k v r)) in *; lia.
Qed.

Lemma lsize_app a b : lsize (a ++ b) = (lsize a + lsize b)%nat.
Proof. unfold lsize. induction a as [|x a IH]; [reflexivity|]. cbn [app fold_right]. rewrite IH. lia. Qed.

Lemma lsize_rev l : lsize (rev l) = lsize l.
Proof. induction l as [|x l IH]; [reflexivity|]. cbn [rev]. rewrite lsize_app, IH. unfold lsize. cbn [fold_right]. lia. Qed.

(* the three mutually recursive readers, for every fuel above the input length *)
Definition T_value (f : nat) : Prop :=
  forall bs, (length bs < f)%nat ->
    match read_next_value f bs with
    | Ok (Some v, r) => (length r < length bs)%nat /\ (vsize v + length r <= length bs)%nat
    | Ok (None, r) => (length r <= length bs)%nat
    | Err _ => True
    | Panic _ | OutOfFuel => False
    end.
Definition T_props (f : nat) : Prop :=
  forall bs acc, (length bs < f)%nat ->
    match read_props f bs acc with
    | Ok (ps, r) => (length r < length bs)%nat /\ (psize ps + length r <= psize acc + length bs)%nat
    | Err _ => True
    | Panic _ | OutOfFuel => False
    end.
Definition T_elems (f : nat) : Prop :=
  forall count bs acc, (length bs + 1 < f)%nat ->
    match read_array f count bs acc with
    | Ok (vs, r) => (length r <= length bs)%nat /\ (lsize vs + length r <= lsize acc + length bs)%nat
    | Err _ => True
    | Panic _ | OutOfFuel => False
    end.

Lemma total_step f : T_value f -> T_props f -> T_elems f -> T_value (S f) /\ T_props (S f) /\ T_elems (S f).
Proof.
  intros HV HP HE. split; [|split].
  - intros bs Hlen. cbn [read_next_value]. destruct bs as [|m r]; [cbn; lia|]. cbn [length] in Hlen.
    destruct (m =? OBJECT_END_MARKER); [cbn [length]; lia|].
    destruct (m =? BOOLEAN_MARKER). { destruct r as [|b r']; [exact I|]. cbn [length vsize]. lia. }
    destruct (m =? NULL_MARKER); [cbn [length vsize]; lia|].
    destruct (m =? UNDEFINED_MARKER); [cbn [length vsize]; lia|].
    destruct (m =? NUMBER_MARKER).
    { apply take_n_okp. intros b r' L _. cbn [okp length vsize]. lia. }
    destruct (m =? OBJECT_MARKER).
    { refine (okp_bind (HP r [] ltac:(lia)) _). intros [ps r'] [H1 H2].
      cbn [okp length vsize]. fold (psize ps). cbn [psize fold_right] in H2. lia. }
    destruct (m =? ECMA_ARRAY_MARKER).
    { apply take_n_okp. intros b r1 L _.
      refine (okp_bind (HP r1 [] ltac:(lia)) _). intros [ps r'] [H1 H2].
      cbn [okp length vsize]. fold (psize ps). cbn [psize fold_right] in H2. lia. }
    destruct (m =? STRING_MARKER).
    { apply take_n_okp. intros lb r1 L Ll.
      apply take_n_okp. intros s r2 L2 _.
      destruct (utf8_valid s); [|exact I]. cbn [okp length vsize]. unfold lenN in Ll. lia. }
    destruct (m =? STRICT_ARRAY_MARKER).
    { apply take_n_okp. intros cb r1 L Ll. unfold lenN in Ll.
      refine (okp_bind (HE (of_be cb) r1 [] ltac:(lia)) _). intros [vs r'] [H1 H2].
      cbn [okp length vsize]. fold (lsize vs). cbn [lsize fold_right] in H2. lia. }
    exact I.
  - intros bs acc Hlen. cbn [read_props].
    apply take_n_okp. intros lb r1 L Ll.
    assert (Hlb : length lb = 2%nat) by (unfold lenN in Ll; lia).
    destruct (of_be lb =? 0).
    { destruct r1 as [|b r2]; [exact I|]. destruct (b =? OBJECT_END_MARKER); [|exact I]. cbn [okp length] in *. lia. }
    apply take_n_okp. intros label r2 L2 _.
    destruct (utf8_valid label); [|exact I].
    refine (okp_bind (HV r2 ltac:(lia)) _). intros [[pv|] r3] H; [destruct H as [H1 H2]|exact I].
    refine (okp_weaken (HP r3 (map_insert label pv acc) ltac:(lia)) _). intros [ps r4] [H3 H4].
    pose proof (map_insert_size label pv acc). lia.
  - intros count bs acc Hlen. cbn [read_array].
    destruct (count =? 0). { rewrite lsize_rev. lia. }
    refine (okp_bind (HV bs ltac:(lia)) _). intros [[x|] r] H; [destruct H as [H1 H2]|cbn [okp]; rewrite lsize_rev; lia].
    refine (okp_weaken (HE (count - 1) r (x :: acc) ltac:(lia)) _). intros [vs r'] [H3 H4].
    cbn [lsize fold_right] in H4. fold (lsize acc) in H4. lia.
Qed.

Lemma total_all f : T_value f /\ T_props f /\ T_elems f.
Proof.
  revert f. apply fuel_ind3; [intros bs H; lia|intros bs acc H; lia|intros count bs acc H; lia|exact total_step].
Qed.

Lemma read_all_total fuel : forall bs acc, (length bs < fuel)%nat ->
  okp (fun '(vs, r) => (lsize vs + length r <= lsize acc + length bs)%nat) (read_all fuel bs acc).
Proof.
  induction fuel as [|f IH]; intros bs acc Hlen; [lia|]. cbn [read_all].
  refine (okp_bind (proj1 (total_all (S (length bs))) bs ltac:(lia)) _).
  intros [[x|] r] H; [destruct H as [H1 H2]|cbn [okp]; rewrite lsize_rev; lia].
  refine (okp_weaken (IH r (x :: acc) ltac:(lia)) _). intros [vs r'] H. cbn [lsize fold_right] in H. fold (lsize acc) in H. lia.
Qed.

(* deserialize: never a panic, never out of fuel; a successful result is no larger than the input *)
Theorem deserialize_total bs :
  match deserialize bs with
  | Ok vs => (lsize vs <= length bs)%nat
  | Err _ => True
  | Panic _ | OutOfFuel => False
  end.
Proof.
  unfold deserialize, deserialize_rest. refine (okp_bind (read_all_total (S (length bs)) bs [] ltac:(lia)) _).
  intros [vs r] H. cbn [okp lsize fold_right] in *. lia.
Qed.

(* the recursion depth is the nesting depth of the input: [d] nested array headers (5 bytes each) need depth d *)
Fixpoint nested (d : nat) : bytes :=
  match d with O => [] | S d' => STRICT_ARRAY_MARKER :: be32 1 ++ nested d' end.
Fixpoint nested_value (d : nat) : value :=
  match d with O => VStrictArray [] | S d' => VStrictArray [nested_value d'] end.

Lemma nested_length d : length (nested d) = (5 * d)%nat.
Proof. induction d as [|d IH]; [reflexivity|]. cbn [nested length]. rewrite app_length, IH. change (length (be32 1)) with 4%nat. lia. Qed.

Lemma nested_depth d : value_depth (nested_value d) = S d.
Proof. induction d as [|d IH]; [reflexivity|]. cbn [nested_value value_depth fold_right]. rewrite IH. lia. Qed.

Lemma array_of_one f x v rest :
  read_next_value f x = Ok (Some v, rest) ->
  read_next_value (S (S f)) (STRICT_ARRAY_MARKER :: be32 1 ++ x) = Ok (Some (VStrictArray [v]), rest).
Proof.
  intros H. destruct f as [|f']; [discriminate|].
  rewrite read_value_array, (take_n_app_len (be32 1) x 4), of_be_be32 by (reflexivity || lia).
  rewrite (read_array_succ _ 0), H. reflexivity.
Qed.

Lemma nested_decodes d : forall f, (5 * S d < f)%nat ->
  read_next_value f (nested (S d)) = Ok (Some (nested_value d), []).
Proof.
  induction d as [|d IH]; intros f Hf.
  - do 4 (destruct f as [|f]; [lia|]). reflexivity.
  - destruct f as [|[|f]]; try lia.
    change (nested (S (S d))) with (STRICT_ARRAY_MARKER :: be32 1 ++ nested (S d)).
    rewrite (array_of_one f (nested (S d)) (nested_value d) []); [reflexivity|]. apply IH. lia.
Qed.

(* the stack clause of C14 cannot hold for an unboundedly nested input: 5(d+1) bytes decode to a value of depth d+1,
   each level being one recursive activation of read_next_value / read_array *)
Theorem depth_unbounded d :
  deserialize (nested (S d)) = Ok [nested_value d] /\ length (nested (S d)) = (5 * S d)%nat /\ value_depth (nested_value d) = S d.
Proof.
  split; [|split; [apply nested_length|apply nested_depth]].
  unfold deserialize, deserialize_rest. cbn [read_all]. rewrite nested_decodes by (rewrite nested_length; lia).
  cbn [obind]. rewrite nested_length. replace (5 * S d)%nat with (S (4 + 5 * d)) by lia.
  cbn [read_all length read_next_value obind rev app]. reflexivity.
Qed.
