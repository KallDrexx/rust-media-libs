(* C02 under arbitrary fragmentation: the packets a publishing client produces for any sequence of items, cut into input calls in
   ANY way, make the server raise exactly one event per item, in order, byte-exact and tagged; and likewise the packets of a server
   playing to a client.  Each is the delivery of whole packets (publish_sequence_delivered, play_sequence_delivered) with C15 for
   the receiving session. *)
From RML Require Import Model.Base Model.Chunk Model.ChunkSer Model.ChunkDe Model.Messages Model.SessionCommon Model.Server Model.Client
  Proofs.ChunkDeProofs Proofs.ChunkRefineProofs Proofs.InteropProofs Proofs.ServerProofs Proofs.SessionFrame Proofs.SessionPartition Proofs.ClientPartition.
Local Open Scope N_scope.

(* the client's side alone: the packets of a sequence of publish calls *)
Fixpoint client_packets (c : client) (items : list item) : option (client * list bytes) :=
  match items with
  | [] => Some (c, [])
  | Item video data ts drop :: r =>
    match client_publish_media video c data ts drop with
    | (c', COk [CPacket b _]) => match client_packets c' r with Some (c2, bs) => Some (c2, b :: bs) | None => None end
    | _ => None
    end
  end.

Lemma publish_run_feed items : forall c s clock c' s' evs evs0,
  publish_run c s items clock = Some (c', s', evs) ->
  exists packets, client_packets c items = Some (c', packets) /\ feed_server s packets clock evs0 = (s', evs0 ++ evs, VOk).
Proof.
  induction items as [|[video data ts drop] r IH]; intros c s clock c' s' evs evs0 H; cbn [publish_run] in H.
  - injection H as <- <- <-. exists []. rewrite app_nil_r. split; reflexivity.
  - cbn [client_packets]. destruct (client_publish_media video c data ts drop) as [c1 r1]. destruct r1 as [rs| |]; try discriminate.
    destruct rs as [|x rs]; try discriminate. destruct x as [b d| |]; try discriminate. destruct rs; try discriminate.
    destruct (server_handle_input s b clock) as [s1 r2] eqn:E2. destruct r2 as [rs2| |]; try discriminate.
    destruct (publish_run c1 s1 r clock) as [[[c2 s2] evs2]|] eqn:E3; try discriminate. injection H as <- <- <-.
    destruct (IH c1 s1 clock c2 s2 evs2 (evs0 ++ events rs2) E3) as [packets [P1 P2]].
    exists (b :: packets). rewrite P1. split; [reflexivity|]. cbn [feed_server]. rewrite E2, P2, app_assoc. reflexivity.
Qed.

Lemma link_quiescent ser de : Link ser de -> G de = (de, DNone).
Proof.
  intros [sd [_ [[Hst _] Hb]]]. destruct de as [max f cur stg buf prev part]. cbn [d_stage d_buf] in *. subst.
  apply (blocked_empty max f cur prev part).
Qed.

Theorem publish_sequence_any_partition items c s clock sid app key pieces :
  Link (cl_ser c) (sv_de s) -> ser_ok (sv_ser s) -> publishing_stream c = Ok sid -> sid < 4294967296 ->
  sv_connected s = true -> publishing_key s sid = Some (app, key) -> Forall item_wf items ->
  exists c' packets s',
    client_packets c items = Some (c', packets) /\
    (concat pieces = concat packets ->
     feed_server s pieces clock [] = (s', map (fun i => match i with Item video data ts _ => media_event video app key data ts end) items, VOk)).
Proof.
  intros HL Hser Hps Hsid Hc Hk Hwf.
  destruct (publish_sequence_delivered items c s clock sid app key HL Hser Hps Hsid Hc Hk Hwf) as [c' [s1 Hrun]].
  destruct (publish_run_feed items c s clock c' s1 _ [] Hrun) as [packets [P1 P2]]. rewrite app_nil_l in P2.
  exists c', packets, (fst (fst (feed_server s pieces clock []))). split; [exact P1|]. intros Hcat.
  destruct (server_pieces s packets pieces clock s1 _ Hser (link_quiescent _ _ HL) Hcat P2) as [s2 [E _]]. rewrite E. reflexivity.
Qed.

Fixpoint server_packets (s : server) (sid : N) (items : list item) : option (server * list bytes) :=
  match items with
  | [] => Some (s, [])
  | Item video data ts drop :: r =>
    match server_send_media video s sid data ts drop with
    | (s', ROk [SPacket b _]) => match server_packets s' sid r with Some (s2, bs) => Some (s2, b :: bs) | None => None end
    | _ => None
    end
  end.

Lemma play_run_feed items : forall s c sid clock s' c' evs evs0,
  play_run s c sid items clock = Some (s', c', evs) ->
  exists packets, server_packets s sid items = Some (s', packets) /\ feed_client c packets clock evs0 = (c', evs0 ++ evs, CVOk).
Proof.
  induction items as [|[video data ts drop] r IH]; intros s c sid clock s' c' evs evs0 H; cbn [play_run] in H.
  - injection H as <- <- <-. exists []. rewrite app_nil_r. split; reflexivity.
  - cbn [server_packets]. destruct (server_send_media video s sid data ts drop) as [s1 r1]. destruct r1 as [rs| |]; try discriminate.
    destruct rs as [|x rs]; try discriminate. destruct x as [b d| |]; try discriminate. destruct rs; try discriminate.
    destruct (client_handle_input c b clock) as [c1 r2] eqn:E2. destruct r2 as [rs2| |]; try discriminate.
    destruct (play_run s1 c1 sid r clock) as [[[s2 c2] evs2]|] eqn:E3; try discriminate. injection H as <- <- <-.
    destruct (IH s1 c1 sid clock s2 c2 evs2 (evs0 ++ cevents rs2) E3) as [packets [P1 P2]].
    exists (b :: packets). rewrite P1. split; [reflexivity|]. cbn [feed_client]. rewrite E2, P2, app_assoc. reflexivity.
Qed.

Theorem play_sequence_any_partition items s c clock sid pieces :
  Link (sv_ser s) (cl_de c) -> ser_ok (cl_ser c) -> playing_on c sid -> sid < 4294967296 -> Forall item_wf items ->
  exists s' packets c',
    server_packets s sid items = Some (s', packets) /\
    (concat pieces = concat packets ->
     feed_client c pieces clock [] = (c', map (fun i => match i with Item video data ts _ => cmedia_event video data ts end) items, CVOk)).
Proof.
  intros HL Hser Hp Hsid Hwf.
  destruct (play_sequence_delivered items s c clock sid HL Hser Hp Hsid Hwf) as [s' [c1 Hrun]].
  destruct (play_run_feed items s c sid clock s' c1 _ [] Hrun) as [packets [P1 P2]]. rewrite app_nil_l in P2.
  exists s', packets, (fst (fst (feed_client c pieces clock []))). split; [exact P1|]. intros Hcat.
  destruct (client_pieces c packets pieces clock c1 _ Hser (link_quiescent _ _ HL) Hcat P2) as [c2 [E _]]. rewrite E. reflexivity.
Qed.
