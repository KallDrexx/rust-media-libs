(* C02: a metadata item published by the client is raised by the server as exactly that metadata, under the application name and
   stream key.  The metadata mapping (MetadataProofs) + the general receive step of ProtocolFlow (AMF0 round trip of the message, C04;
   chunk-layer link). *)
From Coq Require Import String.
From RML Require Import Model.Base Model.Amf0 Model.Messages Model.SessionCommon
  Model.Server Model.Client Spec.Amf0Wire Proofs.InteropProofs Proofs.MetadataProofs Proofs.ServerProofs
  Proofs.SessionFrame Proofs.ProtocolFlow.
Local Open Scope N_scope.

Definition md_values (md : metadata) : list value :=
  [VString (str "@setDataFrame"); VString (str "onMetaData"); VObject (metadata_props_client md)].

Lemma md_values_wf md : md_ok md -> enc_ok md -> wf_values (md_values md) /\ expressible_all (md_values md) = true.
Proof.
  intros Hm He. destruct (md_props_wf md Hm He) as [Hw Hx]. unfold md_values. cbn [wf_values expressible_all].
  split; [split; [reflexivity|split; [reflexivity|split; [exact Hw|exact I]]]|]. rewrite Hx. reflexivity.
Qed.

Lemma publishing_key_core s s' sid : same_core s s' -> publishing_key s' sid = publishing_key s sid.
Proof. intros [A1 [_ [_ [_ [A5 _]]]]]. unfold publishing_key. rewrite A1, A5. reflexivity. Qed.

Theorem publish_metadata_delivered c s md clock sclock sid app key :
  Link (cl_ser c) (sv_de s) -> ser_ok (sv_ser s) ->
  publishing_stream c = Ok sid -> sid < 4294967296 -> clock < 4294967296 -> md_ok md -> enc_ok md ->
  sv_connected s = true -> publishing_key s sid = Some (app, key) ->
  (exists e, client_publish_metadata c md clock = (c, CErr e)) \/
  exists b c' s' rs,
    client_publish_metadata c md clock = (c', COk [CPacket b false]) /\
    server_handle_input s b sclock = (s', ROk rs) /\
    events rs = [EvMetadata app key md] /\
    Link (cl_ser c') (sv_de s') /\ ser_ok (sv_ser s') /\ publishing_stream c' = Ok sid /\
    sv_connected s' = true /\ publishing_key s' sid = Some (app, key).
Proof.
  intros HL Hser Hps Hsid Hclk Hm He Hc Hk.
  unfold client_publish_metadata. rewrite Hps. fold (md_values md). unfold cone_packet, csending.
  pose proof (send_message_total (cl_ser c) (MAmf0Data (md_values md)) clock sid false false (Link_ser_ok _ _ HL)) as T.
  destruct (send_message (cl_ser c) (MAmf0Data (md_values md)) clock sid false false) as [[b ser']|e|x|] eqn:Es; try contradiction.
  2: { left. eexists. reflexivity. }
  right.
  destruct (server_delivers_silent (clock := sclock) (t := s) (out := [SEvent (EvMetadata app key md)]) (Sent HL Hser Hclk Hsid Es) I eq_refl
              (proj1 (md_values_wf md Hm He))) as [s' [rs [Hin [Hev [Hc' [HL2 [Hs2 _]]]]]]].
  { intros p ser0 a0 de1 Hof Hpsid _. unfold h_message. rewrite Hof. cbv iota. unfold h_data, md_values. rewrite !bytes_eqb_refl, Hpsid.
    change (publishing_key (upd_de _ de1) sid) with (publishing_key s sid). rewrite Hk, (metadata_roundtrip_client md Hm). reflexivity. }
  exists b, (cupd_ser c ser'), s', rs. split; [reflexivity|]. split; [exact Hin|]. split; [exact Hev|]. split; [exact HL2|].
  split; [exact Hs2|]. split; [exact Hps|].
  split; [destruct Hc' as [_ [_ [_ [A4 _]]]]; rewrite A4; exact Hc|rewrite (publishing_key_core s s' sid Hc'); exact Hk].
Qed.
