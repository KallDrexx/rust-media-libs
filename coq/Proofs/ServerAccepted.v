(* C09: events are tagged with the application name accepted LAST.  Accepting a registered connection request stores exactly that
   request's application name, whatever name an earlier accepted request left behind. *)
From RML Require Import Model.Base Model.Amf0 Model.Chunk Model.Messages Model.Float Model.SessionCommon Model.Server Proofs.ServerProofs.
Local Open Scope N_scope.

Lemma accept_connection_stores_app s id app tr clock s' rs :
  lookup id (sv_reqs s) = Some (RConnection app tr) -> server_accept s id clock = (s', ROk rs) ->
  sv_app s' = Some app /\ sv_connected s' = true /\ (exists b, rs = [SPacket b false]) /\
  sv_streams s' = sv_streams s /\ sv_next_stream s' = sv_next_stream s.
Proof.
  intros Hl H. unfold server_accept in H. rewrite Hl in H. cbv zeta iota in H. unfold accept_connection in H. cbv zeta in H.
  destruct (one_packet_spec _ _ _ _ _ _ _ _ H) as [[Ha [_ [_ [Hc [Hst [Hns _]]]]]] [_ [_ Hcase]]].
  cbn [sv_app sv_connected sv_streams sv_next_stream upd_conn upd_reqs] in Ha, Hc, Hst, Hns.
  split; [exact Ha|]. split; [exact Hc|]. split.
  - destruct Hcase as [[b [ser' [_ [Hr _]]]] | [[e [Hr _]] | [Hr _]]]; try discriminate Hr. injection Hr as ->. exists b. reflexivity.
  - split; assumption.
Qed.

(* accepting a connection fails only where the reply cannot be built; the call then returns the error and no event *)
Lemma accept_connection_failure_no_event s id app tr clock s' e :
  lookup id (sv_reqs s) = Some (RConnection app tr) -> server_accept s id clock = (s', RErr e) -> exists w, e = SWire w.
Proof.
  intros Hl H. unfold server_accept in H. rewrite Hl in H. cbv zeta iota in H. unfold accept_connection in H. cbv zeta in H.
  destruct (one_packet_spec _ _ _ _ _ _ _ _ H) as [_ [_ [_ Hcase]]].
  destruct Hcase as [[b [ser' [_ [Hr _]]]] | [[w [Hr _]] | [Hr _]]]; try discriminate Hr. injection Hr as ->. exists w. reflexivity.
Qed.

Lemma reject_keeps_connection s id code d clock s' r :
  server_reject s id code d clock = (s', r) ->
  sv_app s' = sv_app s /\ sv_connected s' = sv_connected s /\ sv_streams s' = sv_streams s /\ sv_next_stream s' = sv_next_stream s /\
  sv_next_req s' = sv_next_req s.
Proof.
  unfold server_reject. destruct (lookup id (sv_reqs s)) as [req|] eqn:El.
  - cbv zeta. destruct (match req with RConnection _ tr => (tr, 0) | RPublish _ _ sid => (0, sid) | RPlay _ sid => (0, sid) end) as [tr sid].
    intros H. destruct (one_packet_spec _ _ _ _ _ _ _ _ H) as [[Ha [_ [Hn [Hc [Hst [Hns _]]]]]] _].
    cbn [sv_app sv_connected sv_streams sv_next_stream sv_next_req upd_reqs] in Ha, Hc, Hst, Hns, Hn.
    repeat split; assumption.
  - intros H. injection H as <- _. repeat split; reflexivity.
Qed.
