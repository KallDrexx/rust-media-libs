(* C20: RTMP timestamps are a clock modulo 2^32.  add_values and sub_values are exact and inverse to each other;
   compare_values says "later" exactly for 1 .. 2^31-1 ahead, except at distance 2^31, where no antisymmetric
   comparison can (antipode_impossible). *)
From Coq Require Import ZArith Lia ZifyN ZifyBool ZifyNat.
From RML Require Import Model.Base Model.Time Gen.Consts.
Local Open Scope N_scope.

Definition u32 (a : N) : Prop := a < two32.

Lemma add_exact a b : u32 a -> u32 b -> add_values a b = (a + b) mod 2^32 /\ u32 (add_values a b).
Proof. unfold u32, add_values, two32. change (2^32) with 4294967296. intros; split; [reflexivity|lia]. Qed.

Lemma sub_exact a b : u32 a -> u32 b ->
  u32 (sub_values a b) /\ (sub_values a b + b) mod 2^32 = a.
Proof. unfold u32, sub_values, two32. change (2^32) with 4294967296. intros; split; lia. Qed.

Lemma add_sub_inverse a d : u32 a -> u32 d -> sub_values (add_values a d) d = a.
Proof. unfold u32, sub_values, add_values, two32. intros. lia. Qed.

Lemma sub_add_inverse a d : u32 a -> u32 d -> add_values (sub_values a d) d = a.
Proof. unfold u32, sub_values, add_values, two32. intros. lia. Qed.

Lemma cmp_eq_iff a b : u32 a -> u32 b -> (compare_values a b = Eq <-> a = b).
Proof.
  unfold compare_values. intros _ _.
  destruct (N.max a b - N.min a b <=? MAX_ADJACENT_VALUE); rewrite N.compare_eq_iff; [reflexivity|split; congruence].
Qed.

Lemma cmp_antisym a b : compare_values b a = CompOpp (compare_values a b).
Proof.
  unfold compare_values.
  rewrite (N.max_comm b a), (N.min_comm b a).
  destruct (N.max a b - N.min a b <=? MAX_ADJACENT_VALUE); apply N.compare_antisym.
Qed.

(* distance from a forward to b, modulo 2^32 *)
Definition fwd (a b : N) : N := sub_values b a.

Lemma cmp_later_iff a b : u32 a -> u32 b -> fwd a b <> two31 ->
  (compare_values a b = Lt <-> 1 <= fwd a b <= two31 - 1).
Proof.
  unfold u32, fwd, sub_values, compare_values, two32, two31, MAX_ADJACENT_VALUE. intros Ha Hb Hd.
  destruct (N.max a b - N.min a b <=? 2147483647) eqn:E; rewrite N.compare_lt_iff; lia.
Qed.

Lemma cmp_earlier_iff a b : u32 a -> u32 b -> fwd a b <> two31 ->
  (compare_values a b = Gt <-> two31 + 1 <= fwd a b <= two32 - 1).
Proof.
  unfold u32, fwd, sub_values, compare_values, two32, two31, MAX_ADJACENT_VALUE. intros Ha Hb Hd.
  destruct (N.max a b - N.min a b <=? 2147483647) eqn:E; rewrite N.compare_gt_iff; lia.
Qed.

(* at the antipode the numerically smaller value is reported as the later one *)
Lemma cmp_antipode a b : u32 a -> u32 b -> fwd a b = two31 ->
  compare_values a b = CompOpp (N.compare a b) /\ a <> b.
Proof.
  unfold u32, fwd, sub_values, compare_values, two32, two31, MAX_ADJACENT_VALUE. intros Ha Hb Hd.
  destruct (N.max a b - N.min a b <=? 2147483647) eqn:E.
  - exfalso. lia.
  - split; [ rewrite N.compare_antisym; reflexivity | lia ].
Qed.

(* The literal reading "later iff 1..2^31-1 ahead" cannot hold at distance 2^31 for ANY comparison
   function that agrees with equality and is antisymmetric (DESIGN 10.1). *)
Lemma antipode_impossible (cmp : N -> N -> comparison) :
  (forall a b, u32 a -> u32 b -> (cmp a b = Eq <-> a = b)) ->
  (forall a b, cmp b a = CompOpp (cmp a b)) ->
  ~ (forall a b, u32 a -> u32 b -> (cmp a b = Lt <-> 1 <= fwd a b <= two31 - 1)).
Proof.
  intros Heq Hanti Hall.
  assert (Ha : u32 0) by (unfold u32, two32; lia).
  assert (Hb : u32 two31) by (unfold u32, two32, two31; lia).
  pose proof (Hall 0 two31 Ha Hb) as H1.
  pose proof (Hall two31 0 Hb Ha) as H2.
  pose proof (Heq 0 two31 Ha Hb) as H3.
  pose proof (Hanti 0 two31) as H4.
  unfold fwd, sub_values, two32, two31 in *.
  destruct (cmp 0 2147483648) eqn:E1; simpl in H4.
  - destruct H3 as [H3 _]. specialize (H3 eq_refl). lia.
  - destruct H1 as [H1 _]. specialize (H1 eq_refl). lia.
  - destruct H2 as [H2 _]. specialize (H2 H4). lia.
Qed.

Lemma compare_no_underflow a b : exists d, compare_difference_checked a b = Some d /\ d = N.max a b - N.min a b.
Proof.
  unfold compare_difference_checked.
  destruct (N.min a b <=? N.max a b) eqn:E.
  - eexists; split; reflexivity.
  - exfalso. lia.
Qed.

Lemma u32_impls_agree a b :
  ts_partial_cmp a b = Some (ts_cmp a b) /\
  ts_partial_cmp_u32 a b = Some (ts_cmp a b) /\
  u32_partial_cmp_ts a b = Some (ts_cmp a b) /\
  ts_eq_u32 a b = ts_eq a b /\ u32_eq_ts a b = ts_eq a b /\
  (u32 a -> u32 b -> (ts_eq a b = true <-> ts_cmp a b = Eq)).
Proof.
  do 5 (split; [reflexivity|]).
  intros Ha Hb. unfold ts_eq, ts_cmp. rewrite N.eqb_eq. symmetry. apply cmp_eq_iff; assumption.
Qed.

Example wrap_example :
  compare_values 4294967290 5 = Lt /\ fwd 4294967290 5 = 11 /\ add_values 4294967290 11 = 5 /\ sub_values 5 11 = 4294967290.
Proof. vm_compute. repeat split. Qed.
