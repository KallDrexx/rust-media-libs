(* C13: RTMP message bodies follow the specification layout and convert back losslessly. *)
From Coq Require Import ZArith Lia ZifyN ZifyBool ZifyNat.
From RML Require Import Model.Base Model.Amf0 Model.Messages Gen.Consts
  Spec.Amf0Spec Spec.Amf0Wire Spec.MessageSpec Proofs.BaseProofs Proofs.Amf0Proofs.
Local Open Scope N_scope.

Lemma Ok_inj {A E} (a b : A) : @Ok A E a = Ok b -> a = b.
Proof. intros H; inversion H; reflexivity. Qed.

Definition known_tid (t : N) : bool :=
  (t =? 1) || (t =? 2) || (t =? 3) || (t =? 4) || (t =? 5) || (t =? 6) || (t =? 8) || (t =? 9) ||
  (t =? 15) || (t =? 17) || (t =? 18) || (t =? 20).

Definition u32 (n : N) : Prop := n < 4294967296.

(* well-formed messages: the Option fields populated exactly as the event type requires, Unknown only with
   an unknown type id, AMF0 parts well-formed (C04) *)
Definition msg_ok (m : rtmp_message) : Prop :=
  match m with
  | MUnknown tid _ => known_tid tid = false
  | MAbort n | MAcknowledgement n | MWindowAcknowledgement n | MSetChunkSize n => u32 n
  | MSetPeerBandwidth n _ => u32 n
  | MUserControl ev sid bl ts =>
      match ev with
      | SetBufferLength => (exists a b, sid = Some a /\ bl = Some b /\ u32 a /\ u32 b) /\ ts = None
      | PingRequest | PingResponse => sid = None /\ bl = None /\ exists t, ts = Some t /\ u32 t
      | _ => (exists a, sid = Some a /\ u32 a) /\ bl = None /\ ts = None
      end
  | MAmf0Command name tr obj args => wf_values (VString name :: VNumber tr :: obj :: args)
  | MAmf0Data vs => wf_values vs
  | MAudioData _ | MVideoData _ => True
  end.

Lemma read_u32_be32 n rest : u32 n -> read_u32 (be32 n ++ rest) = Some (n, rest).
Proof.
  intros H. unfold read_u32. change 4 with (lenN (be32 n)). rewrite take_n_app. rewrite of_be_be32 by exact H. reflexivity.
Qed.

Lemma read_u32_be32_nil n : u32 n -> read_u32 (be32 n) = Some (n, []).
Proof. intros H. rewrite <- (app_nil_r (be32 n)). apply read_u32_be32. exact H. Qed.

Lemma read_u16_be16 n rest : n < 65536 -> read_u16 (be16 n ++ rest) = Some (n, rest).
Proof.
  intros H. unfold read_u16. change 2 with (lenN (be16 n)). rewrite take_n_app. rewrite of_be_be16 by exact H. reflexivity.
Qed.

Lemma de_u32_be32 f n : u32 n -> de_u32 f (be32 n) = Ok (f n).
Proof. intros H. unfold de_u32. rewrite read_u32_be32_nil by exact H. reflexivity. Qed.

Lemma uc_of_code_code ev : uc_of_code (uc_code ev) = Some ev.
Proof. destruct ev; reflexivity. Qed.

Lemma deserialize_of_serialize vs b : wf_values vs -> Amf0.serialize vs = Ok b -> Amf0.deserialize b = Ok vs.
Proof.
  intros Hwf E. unfold Amf0.deserialize. rewrite (roundtrip_ok vs b Hwf E). reflexivity.
Qed.

(* MessagePayload::to_rtmp_message, type id by type id *)
Lemma of_payload_1 d :
  of_payload 1 d =
  match read_u32 d with
  | None => Err DeIo
  | Some (n, _) => if MAX_CHUNK_SIZE_MSG <? n then Err InvalidMessageFormat else Ok (MSetChunkSize n)
  end.
Proof. reflexivity. Qed.
Lemma of_payload_2 d : of_payload 2 d = de_u32 MAbort d.
Proof. reflexivity. Qed.
Lemma of_payload_3 d : of_payload 3 d = de_u32 MAcknowledgement d.
Proof. reflexivity. Qed.
Lemma of_payload_4 d : of_payload 4 d = de_user_control d.
Proof. reflexivity. Qed.
Lemma of_payload_5 d : of_payload 5 d = de_u32 MWindowAcknowledgement d.
Proof. reflexivity. Qed.
Lemma of_payload_6 d :
  of_payload 6 d =
  match read_u32 d with
  | None => Err DeIo
  | Some (n, r) =>
      match r with
      | [] => Err DeIo
      | c :: _ => if c =? LIMITD_Hard then Ok (MSetPeerBandwidth n Hard)
                  else if c =? LIMITD_Soft then Ok (MSetPeerBandwidth n Soft)
                  else if c =? LIMITD_Dynamic then Ok (MSetPeerBandwidth n Dynamic)
                  else Err InvalidMessageFormat
      end
  end.
Proof. reflexivity. Qed.
Lemma of_payload_18 d : of_payload 18 d = de_amf0_data d.
Proof. reflexivity. Qed.
Lemma of_payload_20 d : of_payload 20 d = de_amf0_command d.
Proof. reflexivity. Qed.

Theorem unknown_passthrough tid d : known_tid tid = false -> of_payload tid d = Ok (MUnknown tid d).
Proof.
  unfold known_tid, of_payload. intros H.
  repeat (apply orb_false_elim in H; destruct H as [H ?]).
  repeat match goal with E : (tid =? _) = false |- _ => rewrite E; clear E end. reflexivity.
Qed.

Theorem msg_roundtrip m tid b : msg_ok m -> to_payload m = Ok (tid, b) -> of_payload tid b = Ok m.
Proof.
  intros Hok H. unfold to_payload in H. apply obind_ok in H as [body [Eb [= <- <-]]].
  destruct m as [t d|n|n|name tr obj args|vs|d|n|n lt|ev sid bl ts|d|n]; cbn [message_body message_type_id msg_ok] in *.
  - apply Ok_inj in Eb as <-. apply unknown_passthrough, Hok.
  - apply Ok_inj in Eb as <-. rewrite of_payload_2. apply de_u32_be32, Hok.
  - apply Ok_inj in Eb as <-. rewrite of_payload_3. apply de_u32_be32, Hok.
  - destruct (Amf0.serialize (VString name :: VNumber tr :: obj :: args)) as [b0|e0| |] eqn:Es; try discriminate.
    apply Ok_inj in Eb as <-. rewrite of_payload_20. unfold de_amf0_command.
    rewrite (deserialize_of_serialize _ _ Hok Es). reflexivity.
  - destruct (Amf0.serialize vs) as [b0|e0| |] eqn:Es; try discriminate.
    apply Ok_inj in Eb as <-. rewrite of_payload_18. unfold de_amf0_data.
    rewrite (deserialize_of_serialize _ _ Hok Es). reflexivity.
  - apply Ok_inj in Eb as <-. reflexivity.
  - destruct (MAX_CHUNK_SIZE_MSG <? n) eqn:E; [discriminate|]. apply Ok_inj in Eb as <-.
    rewrite of_payload_1, read_u32_be32_nil, E by exact Hok. reflexivity.
  - apply Ok_inj in Eb as <-. rewrite of_payload_6, read_u32_be32 by exact Hok. destruct lt; reflexivity.
  - rewrite of_payload_4. unfold de_user_control.
    destruct ev; cbv beta iota in Eb; apply Ok_inj in Eb as <-; rewrite read_u16_be16, uc_of_code_code by reflexivity;
      try (destruct Hok as [[a [Ha Hu]] [Hb Hc]]; subst sid bl ts; cbn [opt0]; rewrite read_u32_be32_nil by exact Hu; reflexivity);
      try (destruct Hok as [Ha [Hb [t [Hc Hu]]]]; subst sid bl ts; cbn [opt0]; rewrite read_u32_be32_nil by exact Hu; reflexivity).
    destruct Hok as [[a [b0 [Ha [Hb [Hua Hub]]]]] Hc]. subst sid bl ts. cbn [opt0].
    rewrite read_u32_be32 by exact Hua. rewrite read_u32_be32_nil by exact Hub. reflexivity.
  - apply Ok_inj in Eb as <-. reflexivity.
  - apply Ok_inj in Eb as <-. rewrite of_payload_5. apply de_u32_be32, Hok.
Qed.

Lemma serialize_is_spec vs : wf_values vs ->
  (exists b, ref_encode_all vs = Some b /\ Amf0.serialize vs = Ok b) \/ (ref_encode_all vs = None /\ exists e, Amf0.serialize vs = Err e).
Proof.
  intros Hwf. rewrite (proj2 (proj2 ref_encode_wire_all)). destruct (encode_values_wire vs Hwf) as [H1 H2].
  destruct (expressible_all vs).
  - left. eexists. split; [reflexivity|exact (proj1 (H1 eq_refl))].
  - right. split; [reflexivity|exact (H2 eq_refl)].
Qed.

Theorem layout_is_spec m : msg_ok m ->
  match spec_layout m with
  | Some p => to_payload m = Ok p
  | None => exists e, to_payload m = Err e
  end.
Proof.
  intros Hok. unfold to_payload.
  destruct m as [t d|n|n|name tr obj args|vs|d|n|n lt|ev sid bl ts|d|n]; cbn [message_body message_type_id msg_ok spec_layout] in *; try reflexivity.
  - destruct (serialize_is_spec _ Hok) as [[b [-> ->]]|[-> [e ->]]]; [reflexivity|eexists; reflexivity].
  - destruct (serialize_is_spec _ Hok) as [[b [-> ->]]|[-> [e ->]]]; [reflexivity|eexists; reflexivity].
  - unfold MAX_CHUNK_SIZE_MSG. destruct (2147483647 <? n) eqn:E.
    + replace (n <=? 2147483647) with false by lia. eexists; reflexivity.
    + replace (n <=? 2147483647) with true by lia. reflexivity.
  - destruct ev; try (destruct Hok as [[a [Ha Hu]] [Hb Hc]]; subst sid bl ts; reflexivity);
      try (destruct Hok as [Ha [Hb [t [Hc Hu]]]]; subst sid bl ts; reflexivity).
    destruct Hok as [[a [b0 [Ha [Hb [Hua Hub]]]]] Hc]. subst sid bl ts. reflexivity.
Qed.

Theorem amf3_data_alias d : of_payload 15 d = of_payload 18 d.
Proof. reflexivity. Qed.

Theorem amf3_command_alias d :
  of_payload 17 d = of_payload 20 (match d with 0 :: r => r | _ => d end).
Proof. destruct d as [|[|p] r]; reflexivity. Qed.

Theorem chunk_size_bounds n : 2147483647 < n -> n < 4294967296 ->
  to_payload (MSetChunkSize n) = Err InvalidChunkSize /\ of_payload 1 (be32 n) = Err InvalidMessageFormat.
Proof.
  intros H1 H2. rewrite of_payload_1, read_u32_be32_nil by exact H2. unfold to_payload. cbn [message_body].
  unfold MAX_CHUNK_SIZE_MSG. replace (2147483647 <? n) with true by lia. split; reflexivity.
Qed.
