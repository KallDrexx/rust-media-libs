(* What a session call does with its serializer, as data.  In the Rust sessions a call first decides on its protocol fields what
   to do and then pushes packets and events onto a result vector, each packet made by the session's ChunkSerializer, `?` ending
   the call at the first refusal.  A plan is that second half: the serializer operations and the events raised in between.
   Both sessions interpret plans (ServerProofs.run, ClientProofs.crun). *)
From Coq Require Import String.
From RML Require Import Model.Base Model.ChunkDe Model.Messages.
Local Open Scope N_scope.

(* messages a session sends: never a raw Set Chunk Size (that is the serializer's own operation), never an unknown type *)
Definition sendable (m : rtmp_message) : bool :=
  match m with MUnknown _ _ | MSetChunkSize _ => false | _ => true end.

(* ISend: send_message of m with time stamp ts on stream sid (force, drop: the serializer's force_uncompressed, can_be_dropped);
   ISize: the serializer's set_max_chunk_size, whose Set Chunk Size packet is emitted; INote: raise event e. *)
Inductive plan_item (E : Type) :=
| ISend (m : rtmp_message) (ts sid : N) (force drop : bool)
| ISize (n ts : N)
| INote (e : E).
Arguments ISend {E}.
Arguments ISize {E}.
Arguments INote {E}.

(* the items a call plans: messages stamped with the time the call was given, on a stream among those P allows; a chunk size
   announcement always carries time 0 *)
Definition sends_at {E} (clock : N) (P : N -> Prop) (it : plan_item E) : Prop :=
  match it with
  | ISend m ts i _ _ => sendable m = true /\ ts = clock /\ P i
  | ISize _ ts => ts = 0
  | INote _ => True
  end.

(* what the chunk format can carry *)
Definition item_ok {E} (it : plan_item E) : Prop :=
  match it with
  | ISend m ts i _ _ => sendable m = true /\ ts < 4294967296 /\ i < 4294967296
  | ISize _ ts => ts < 4294967296
  | INote _ => True
  end.

Lemma sends_at_ok {E} clock (P : N -> Prop) (it : plan_item E) :
  clock < 4294967296 -> (forall i, P i -> i < 4294967296) -> sends_at clock P it -> item_ok it.
Proof.
  intros Hc HP. destruct it as [m ts i f d|n ts|e]; cbn [sends_at item_ok].
  - intros [Hm [-> Hi]]. repeat split; [exact Hm|exact Hc|exact (HP i Hi)].
  - intros ->. reflexivity.
  - exact id.
Qed.

Lemma de_set_max_alike d1 d2 n :
  (exists e, de_set_max_chunk_size d1 n = Err e /\ de_set_max_chunk_size d2 n = Err e) \/
  (exists d1' d2', de_set_max_chunk_size d1 n = Ok d1' /\ de_set_max_chunk_size d2 n = Ok d2').
Proof. unfold de_set_max_chunk_size. destruct (_ || _); [left|right; eexists]; eexists; split; reflexivity. Qed.

(* String literals are large terms and every case analysis re-types the goal that carries them: name them first. *)
Ltac hide_strings := repeat match goal with |- context [String ?a ?r] => generalize (String a r); intro end.

(* Follows the case analysis of a handler - the last argument of the goal - down to its leaves; a match on a match is entered
   from the inside.  Where the goal holds the handler twice, on sessions with the same fields, both copies branch together. *)
Ltac walk :=
  hide_strings;
  repeat first [ progress cbv beta iota
               | match goal with
                 | |- _ (match (match ?y with _ => _ end) with _ => _ end) => destruct y
                 | |- _ (match ?x with _ => _ end) => destruct x
                 end ].
