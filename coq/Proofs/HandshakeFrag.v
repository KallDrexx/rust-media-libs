(* C05: the handshake under every fragmentation of the peer's bytes.  Same structure as C15 for the chunk deserializer:
   each step looks only at a prefix of the buffer, a call runs until it blocks, and a call on a ++ b is the call on a
   followed by the call on b. *)
From Coq Require Import ZArith Lia ZifyN ZifyBool ZifyNat.
From RML Require Import Model.Base Model.Handshake Gen.Consts Proofs.HandshakeProofs.
Local Open Scope N_scope.

Section Frag.
  Variable hmac : bytes -> bytes -> bytes.
  Hypothesis hmac_length : forall k m, length (hmac k m) = 32%nat.

  Definition hext (h : hs) (x : bytes) : hs :=
    {| h_stage := h_stage h; h_role := h_role h; h_buf := h_buf h ++ x; h_sent_p1 := h_sent_p1 h; h_rand := h_rand h |}.

  Lemma hext_nil h : hext h [] = h.
  Proof. destruct h. unfold hext. cbn. rewrite app_nil_r. reflexivity. Qed.
  Lemma hext_hext h a b : hext (hext h a) b = hext h (a ++ b).
  Proof. destruct h. unfold hext. cbn. rewrite app_assoc. reflexivity. Qed.

  Definition rank (s : hstage) : nat :=
    match s with NeedToSendP0AndP1 => 0 | WaitingForPacket0 => 1 | WaitingForPacket1 => 2 | WaitingForPacket2 => 3 | Complete => 4 end.

  Lemma stage_eqb_neq a b : a <> b -> stage_eqb a b = false.
  Proof. destruct a, b; intros H; try reflexivity; destruct (H eq_refl). Qed.

  Lemma hext_buf h x p rest : h_buf h = p ++ rest -> h_buf (hext h x) = p ++ rest ++ x.
  Proof. intros E. cbn [hext h_buf]. rewrite E. symmetry. apply app_assoc. Qed.

  (* one step blocks without a change, or moves to the next stage, having looked only at a prefix of the buffer *)
  Lemma step_ext h x :
    match hs_step hmac h with
    | (h', SProgress out) =>
        if stage_eqb (h_stage h) (h_stage h') then h' = h /\ out = [] /\ h_stage h <> Complete
        else rank (h_stage h') = S (rank (h_stage h)) /\ h_stage h' <> Complete /\
             hs_step hmac (hext h x) = (hext h' x, SProgress out)
    | (h', SDone rem) => h_stage h' = Complete /\ hs_step hmac (hext h x) = (h', SDone (rem ++ x))
    | (h', SFail e) => hs_step hmac (hext h x) = (hext h' x, SFail e)
    end.
  Proof.
    destruct (h_stage h) eqn:Es.
    - rewrite (hs_step_send hmac h Es), (hs_step_send hmac (hext h x) Es), (gen_p0p1_eq hmac h), (gen_p0p1_eq hmac (hext h x)).
      unfold hext. cbn [h_stage h_role h_buf h_sent_p1 h_rand fst snd]. repeat split; discriminate.
    - rewrite (hs_step_version hmac h Es), (hs_step_version hmac (hext h x) Es). cbn [hext h_buf].
      destruct (h_buf h) as [|b rest]; cbn [app].
      + rewrite Es. repeat split; discriminate.
      + destruct (b =? HS_VERSION_BYTE); [repeat split; discriminate|reflexivity].
    - destruct (lenN (h_buf h) <? HS_PACKET_SIZE) eqn:El.
      + rewrite (hs_step_short hmac h (or_introl Es) El), Es. repeat split; discriminate.
      + destruct (full_packet _ El) as [p [rest [Eb Hl]]].
        rewrite (hs_step_p1 hmac h p rest Es Eb Hl), (hs_step_p1 hmac (hext h x) p (rest ++ x) Es (hext_buf h x p rest Eb) Hl).
        repeat split; discriminate.
    - destruct (lenN (h_buf h) <? HS_PACKET_SIZE) eqn:El.
      + rewrite (hs_step_short hmac h (or_intror Es) El), Es. repeat split; discriminate.
      + destruct (full_packet _ El) as [p [rest [Eb Hl]]].
        rewrite (hs_step_p2 hmac h p rest Es Eb Hl), (hs_step_p2 hmac (hext h x) p (rest ++ x) Es (hext_buf h x p rest Eb) Hl).
        split; reflexivity.
    - rewrite (hs_step_complete hmac h Es), (hs_step_complete hmac (hext h x) Es). reflexivity.
  Qed.

  Lemma hs_loop_S f h resp left :
    hs_loop hmac (S f) h resp left =
    match hs_step hmac h with
    | (h', SProgress out) =>
        if stage_eqb (h_stage h) (h_stage h') then (h, HInProgress resp) else hs_loop hmac f h' (resp ++ out) left
    | (h', SDone rem) => (h', HCompleted resp (left ++ rem))
    | (h', SFail e) => (h', HError e)
    end.
  Proof.
    cbn [hs_loop]. pose proof (step_ext h []) as Hx. destruct (hs_step hmac h) as [h' [out|rem|e]].
    - destruct (stage_eqb (h_stage h) (h_stage h')).
      + destruct Hx as [-> [-> Hn]]. rewrite (stage_eqb_neq _ _ Hn), app_nil_r. reflexivity.
      + destruct Hx as [_ [Hc _]]. rewrite (stage_eqb_neq _ _ Hc). reflexivity.
    - destruct Hx as [-> _]. reflexivity.
    - reflexivity.
  Qed.

  Definition bound (h : hs) : nat := (5 - rank (h_stage h))%nat.

  Lemma bound_pos h : (1 <= bound h)%nat.
  Proof. unfold bound. destruct (h_stage h); cbn; lia. Qed.

  Lemma loop_fuel_any f1 : forall f2 h resp, (bound h <= f1)%nat -> (bound h <= f2)%nat ->
    hs_loop hmac f1 h resp [] = hs_loop hmac f2 h resp [].
  Proof.
    induction f1 as [|f1 IH]; intros f2 h resp B1 B2; pose proof (bound_pos h) as B0; [lia|].
    destruct f2 as [|f2]; [lia|]. rewrite !hs_loop_S. pose proof (step_ext h []) as Hx.
    destruct (hs_step hmac h) as [h' [out|rem|e]]; try reflexivity.
    destruct (stage_eqb (h_stage h) (h_stage h')); [reflexivity|].
    destruct Hx as [Hr _]. apply IH; unfold bound in *; rewrite Hr; lia.
  Qed.

  Lemma ext_loop f : forall h x resp, (bound h <= f)%nat ->
    match hs_loop hmac f h resp [] with
    | (h1, HInProgress ra) => hs_loop hmac f (hext h x) resp [] = hs_loop hmac f (hext h1 x) ra [] /\ (bound h1 <= f)%nat
    | (h1, HCompleted ra rem) => hs_loop hmac f (hext h x) resp [] = (h1, HCompleted ra (rem ++ x))
    | (h1, HError e) => hs_loop hmac f (hext h x) resp [] = (hext h1 x, HError e)
    end.
  Proof.
    induction f as [|f IH]; intros h x resp B; [pose proof (bound_pos h); lia|].
    rewrite hs_loop_S. pose proof (step_ext h x) as Hx.
    destruct (hs_step hmac h) as [h' [out|rem|e]].
    - destruct (stage_eqb (h_stage h) (h_stage h')) eqn:E; [split; [reflexivity|exact B]|].
      destruct Hx as [Hr [_ Hs]]. rewrite hs_loop_S, Hs. change (h_stage (hext ?a x)) with (h_stage a). rewrite E.
      assert (B' : (bound h' <= f)%nat) by (unfold bound in *; rewrite Hr; lia).
      specialize (IH h' x (resp ++ out) B').
      destruct (hs_loop hmac f h' (resp ++ out) []) as [h1 [ra|ra rem|e]]; try exact IH.
      destruct IH as [I1 I2]. split; [|lia]. rewrite I1. apply loop_fuel_any; [exact I2|]. change (bound (hext h1 x)) with (bound h1). lia.
    - destruct Hx as [_ Hs]. rewrite hs_loop_S, Hs. reflexivity.
    - rewrite hs_loop_S, Hx. reflexivity.
  Qed.

  Definition with_prefix (pre : bytes) (r : hs_result) : hs_result :=
    match r with
    | HInProgress a => HInProgress (pre ++ a)
    | HCompleted a rem => HCompleted (pre ++ a) rem
    | HError e => HError e
    end.

  (* the response accumulator is only ever appended to *)
  Lemma loop_prefix f : forall h pre resp left,
    hs_loop hmac f h (pre ++ resp) left = (fst (hs_loop hmac f h resp left), with_prefix pre (snd (hs_loop hmac f h resp left))).
  Proof.
    induction f as [|f IH]; intros h pre resp left; [reflexivity|]. rewrite !hs_loop_S.
    destruct (hs_step hmac h) as [h' [out|rem|e]]; try reflexivity.
    destruct (stage_eqb (h_stage h) (h_stage h')); [reflexivity|]. rewrite <- app_assoc. apply IH.
  Qed.

  Lemma process_bytes_ext h data : process_bytes hmac h data = hs_loop hmac 6 (hext h data) [] [].
  Proof. reflexivity. Qed.

  Lemma bound_le_6 h : (bound h <= 6)%nat.
  Proof. unfold bound. lia. Qed.

  Theorem call_split h a b :
    match process_bytes hmac h a with
    | (h1, HInProgress ra) =>
        process_bytes hmac h (a ++ b) = (fst (process_bytes hmac h1 b), with_prefix ra (snd (process_bytes hmac h1 b)))
    | (h1, HCompleted ra rem) => process_bytes hmac h (a ++ b) = (h1, HCompleted ra (rem ++ b))
    | (h1, HError e) => process_bytes hmac h (a ++ b) = (hext h1 b, HError e)
    end.
  Proof using hmac hmac_length.
    rewrite !process_bytes_ext. rewrite <- hext_hext.
    pose proof (ext_loop 6 (hext h a) b [] (bound_le_6 _)) as H.
    destruct (hs_loop hmac 6 (hext h a) [] []) as [h1 r1]. destruct r1 as [ra|ra rem|e]; try exact H.
    destruct H as [H _]. rewrite H. rewrite process_bytes_ext.
    rewrite <- (app_nil_r ra) at 1. apply loop_prefix.
  Qed.

  (* feeding pieces one call at a time, stopping when the handshake reports completion; the pieces not yet fed stay with the caller *)
  Inductive feed_result := FInProgress (resp : bytes) | FCompleted (resp remaining : bytes) (unfed : list bytes) | FError (e : herr).

  Fixpoint hs_feed (h : hs) (pieces : list bytes) (resp : bytes) : hs * feed_result :=
    match pieces with
    | [] => (h, FInProgress resp)
    | p :: rest =>
      match process_bytes hmac h p with
      | (h', HInProgress r) => hs_feed h' rest (resp ++ r)
      | (h', HCompleted r rem) => (h', FCompleted (resp ++ r) rem rest)
      | (h', HError e) => (h', FError e)
      end
    end.

  Theorem feed_whole pieces : forall h resp, pieces <> [] ->
    match snd (process_bytes hmac h (concat pieces)) with
    | HInProgress r => snd (hs_feed h pieces resp) = FInProgress (resp ++ r)
    | HCompleted r rem => exists rem' fed unfed,
        snd (hs_feed h pieces resp) = FCompleted (resp ++ r) rem' unfed /\ pieces = fed ++ unfed /\ rem' ++ concat unfed = rem
    | HError e => snd (hs_feed h pieces resp) = FError e
    end.
  Proof.
    induction pieces as [|p rest IH]; intros h resp Hne; [contradiction|].
    destruct rest as [|q rest'].
    - cbn [concat hs_feed]. rewrite app_nil_r. destruct (process_bytes hmac h p) as [h1 r1]. destruct r1 as [ra|ra rem|e]; cbn [snd hs_feed].
      + reflexivity.
      + exists rem, [p], []. repeat split. apply app_nil_r.
      + reflexivity.
    - change (concat (p :: q :: rest')) with (p ++ concat (q :: rest')). pose proof (call_split h p (concat (q :: rest'))) as Hs.
      remember (q :: rest') as tl eqn:Etl. cbn [hs_feed].
      destruct (process_bytes hmac h p) as [h1 r1]. destruct r1 as [ra|ra rem|e].
      + rewrite Hs. cbn [snd]. specialize (IH h1 (resp ++ ra) ltac:(subst tl; discriminate)).
        destruct (snd (process_bytes hmac h1 (concat tl))) as [rb|rb remb|e]; cbn [with_prefix].
        * rewrite IH, app_assoc. reflexivity.
        * destruct IH as [rem' [fed [unfed [E1 [-> E2]]]]]. exists rem', (p :: fed), unfed. rewrite E1, app_assoc. repeat split. exact E2.
        * exact IH.
      + rewrite Hs. cbn [snd]. exists rem, [p], tl. repeat split.
      + rewrite Hs. reflexivity.
  Qed.

  Corollary feed_completes pieces h r rem : pieces <> [] -> snd (process_bytes hmac h (concat pieces)) = HCompleted r rem ->
    exists remaining unfed, snd (hs_feed h pieces []) = FCompleted r remaining unfed /\ remaining ++ concat unfed = rem.
  Proof.
    intros Hne E. pose proof (feed_whole pieces h [] Hne) as H. rewrite E in H.
    destruct H as [rem' [fed [unfed [E1 [_ E2]]]]]. exists rem', unfed. split; assumption.
  Qed.

  (* C05: a fresh handshake of either role fed ANY partition of the peer's version byte, packet 1, packet 2 and trailing bytes:
     no error, the responses add up to its own version byte and two packets, completion is reported in the call that
     brings the 3073rd byte (not before: fresh_completion_not_early), and the bytes after the handshake come back exactly once, in order:
     those of the completing call as `remaining`, the later pieces never consumed *)
  Theorem fresh_any_partition r rand p1 p2 trailing pieces :
    length p1 = 1536%nat -> length p2 = 1536%nat ->
    concat pieces = HS_VERSION_BYTE :: p1 ++ p2 ++ trailing ->
    let own := gen_p0p1 hmac (hs_new r rand) in
    exists remaining unfed,
      snd (hs_feed (hs_new r rand) pieces []) = FCompleted (fst own ++ own_p2 hmac r (h_rand (snd own)) p1) remaining unfed /\ remaining ++ concat unfed = trailing.
  Proof.
    intros H1 H2 Hc. apply feed_completes; [intros ->; discriminate|]. rewrite Hc.
    exact (whole_stream_fresh hmac hmac_length r rand p1 p2 trailing H1 H2).
  Qed.

  Lemma completion_not_early h pieces x a b trailing r resp remaining unfed :
    concat pieces = x :: a ++ b ++ trailing -> snd (process_bytes hmac h (concat pieces)) = HCompleted r trailing ->
    snd (hs_feed h pieces []) = FCompleted resp remaining unfed ->
    exists fed, pieces = fed ++ unfed /\ concat fed = x :: a ++ b ++ remaining /\ (S (length a + length b) <= length (concat fed))%nat.
  Proof.
    intros Hc Hw Hf. pose proof (feed_whole pieces h [] ltac:(intros ->; discriminate)) as H. rewrite Hw in H.
    destruct H as [rem' [fed [unfed' [E1 [E E2]]]]]. rewrite Hf in E1. injection E1 as _ <- <-.
    exists fed. split; [exact E|].
    assert (Hcf : concat fed = x :: a ++ b ++ remaining).
    { rewrite E, concat_app, <- E2 in Hc. apply (app_inv_tail (concat unfed)). rewrite Hc. cbn [app]. rewrite <- !app_assoc. reflexivity. }
    split; [exact Hcf|]. rewrite Hcf. cbn [length]. rewrite !app_length. lia.
  Qed.

  Theorem fresh_completion_not_early r rand p1 p2 trailing pieces resp remaining unfed :
    length p1 = 1536%nat -> length p2 = 1536%nat ->
    concat pieces = HS_VERSION_BYTE :: p1 ++ p2 ++ trailing ->
    snd (hs_feed (hs_new r rand) pieces []) = FCompleted resp remaining unfed ->
    exists fed, pieces = fed ++ unfed /\ concat fed = HS_VERSION_BYTE :: p1 ++ p2 ++ remaining /\ (3073 <= length (concat fed))%nat.
  Proof.
    intros H1 H2 Hc Hf. pose proof (whole_stream_fresh hmac hmac_length r rand p1 p2 trailing H1 H2) as Hw.
    cbv zeta in Hw. rewrite <- Hc in Hw.
    (* posed first: destruct of the application itself is slow to check here, with the packet sizes in the context *)
    pose proof (completion_not_early _ pieces _ p1 p2 trailing _ resp remaining unfed Hc Hw Hf) as HH.
    destruct HH as [fed [E [Hcf Hl]]].
    rewrite H1, H2 in Hl. exists fed. exact (conj E (conj Hcf Hl)).
  Qed.

  Theorem after_gen_any_partition r rand p1 p2 trailing pieces :
    length p1 = 1536%nat -> length p2 = 1536%nat ->
    concat pieces = HS_VERSION_BYTE :: p1 ++ p2 ++ trailing ->
    let own := gen_p0p1 hmac (hs_new r rand) in
    exists remaining unfed,
      snd (hs_feed (snd own) pieces []) = FCompleted (own_p2 hmac r (h_rand (snd own)) p1) remaining unfed /\ remaining ++ concat unfed = trailing.
  Proof.
    intros H1 H2 Hc. apply feed_completes; [intros ->; discriminate|]. rewrite Hc.
    exact (whole_stream_after_gen hmac hmac_length r rand p1 p2 trailing H1 H2).
  Qed.
End Frag.
