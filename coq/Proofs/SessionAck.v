(* C17 at the sessions: handle_input runs the acknowledgement counter exactly once, first, on the size of the input; the
   Acknowledgement it emits (if due) is the first result of the call; message handlers never touch the byte count (they only learn a
   window).  So a session takes, call by call, the steps ack_step and ack_learn that the history model of AckProofs iterates. *)
From RML Require Import Model.Base Model.Chunk Model.ChunkSer Model.ChunkDe Model.Messages Model.SessionCommon Model.Server Model.Client
  Proofs.ConfigProofs Proofs.InteropProofs Proofs.MessageLoop Proofs.ServerProofs Proofs.ClientProofs Proofs.SessionFrame Proofs.SessionPartition
  Proofs.ClientPartition.
Local Open Scope N_scope.

(* learned a0 a : a comes from a0 by announcements of a window; they leave the byte count alone *)
Definition learned (a0 a : ack_state) : Prop := exists ws, a = fold_left ack_learn ws a0.

Lemma learned_step a0 a a' : learned a0 a -> a' = a \/ (exists w, a' = ack_learn a w) -> learned a0 a'.
Proof.
  intros [ws ->] [->|[w ->]]; [exists ws; reflexivity|]. exists (ws ++ [w]). rewrite fold_left_app. reflexivity.
Qed.

Lemma learned_since a0 a : learned a0 a -> ack_since a = ack_since a0.
Proof. intros [ws ->]. revert a0. induction ws as [|w r IH]; intros a0; [reflexivity|]. cbn [fold_left]. rewrite IH. reflexivity. Qed.

Lemma h_message_ack s p clock :
  sv_ack (fst (h_message s p clock)) = sv_ack s \/ exists w, sv_ack (fst (h_message s p clock)) = ack_learn (sv_ack s) w.
Proof.
  apply (handled_lift _ _ _ (fun x => sv_ack x = sv_ack s \/ exists w, sv_ack x = ack_learn (sv_ack s) w)
           _ _ (fun _ _ E => E) (h_message_handled1 s p clock)).
  intros s1 s2 [? ? [Hc _]|n d d2 _ _|n]; [left; apply (cmoves_io _ _ _ Hc)|left; reflexivity|right; exists n; reflexivity].
Qed.

Lemma h_loop_learns clock fuel s input acc : learned (sv_ack s) (sv_ack (fst (h_loop fuel s input clock acc))).
Proof.
  apply (run_invariant _ _ _ VOk sv_de upd_de swire VPanic (sh clock) _ reply_of (fun f s i a => h_loop f s i clock a)
           (fun _ _ _ => eq_refl) (h_loop_S clock) (fun s1 => learned (sv_ack s) (sv_ack s1))).
  - intros s1 d H. exact H.
  - intros s1 p H. rewrite sh_fst. exact (learned_step _ _ _ H (h_message_ack s1 p clock)).
  - exists []. reflexivity.
Qed.

Lemma h_loop_prefix clock fuel s input acc s' rs : h_loop fuel s input clock acc = (s', ROk rs) -> exists more, rs = acc ++ more.
Proof.
  intros E. destruct (run_prefix _ _ _ VOk sv_de upd_de swire VPanic (sh clock) _ reply_of (fun f s i a => h_loop f s i clock a)
                        (fun _ _ _ => eq_refl) (h_loop_S clock) fuel s input acc) as [more [v H]].
  rewrite E in H. exists more. destruct v; [injection H as ->; reflexivity|discriminate..].
Qed.

Theorem server_input_ack_state s input clock : ser_ok (sv_ser s) ->
  exists ws, sv_ack (fst (server_handle_input s input clock)) = fold_left ack_learn ws (fst (ack_step (sv_ack s) (lenN input))).
Proof.
  intros Hs. destruct (server_handle_input_loop s input clock Hs) as [ser0 [acc0 [-> _]]].
  apply (h_loop_learns clock _ (upd_ack (upd_ser s ser0) _) input acc0).
Qed.

(* C17 for the server session; a due acknowledgement reports the counted bytes *)
Theorem server_input_ack s input clock : ser_ok (sv_ser s) ->
  let '(a, due) := ack_step (sv_ack s) (lenN input) in
  ack_since (sv_ack (fst (server_handle_input s input clock))) = ack_since a /\
  match due, snd (server_handle_input s input clock) with
  | Some n, ROk rs => exists b ser' more, send_message (sv_ser s) (MAcknowledgement n) clock 0 false false = Ok (b, ser') /\ rs = SPacket b false :: more
  | _, _ => True
  end.
Proof.
  intros Hs. pose proof (learned_since _ _ (server_input_ack_state s input clock Hs)) as Hl.
  destruct (server_handle_input_loop s input clock Hs) as [ser0 [acc0 [E [_ Hacc]]]]. rewrite E in *.
  destruct (ack_step (sv_ack s) (lenN input)) as [a [n|]]; cbn [fst snd] in *; (split; [exact Hl|]); [|exact I].
  destruct Hacc as [b [Eb ->]]. destruct (h_loop _ _ input clock [SPacket b false]) as [s' r] eqn:El. cbn [snd]. destruct r as [rs|e|]; try exact I.
  destruct (h_loop_prefix _ _ _ _ _ _ _ El) as [more ->]. exists b, ser0, more. split; [exact Eb|reflexivity].
Qed.

Lemma ch_message_ack c p clock :
  cl_ack (fst (ch_message c p clock)) = cl_ack c \/ exists w, cl_ack (fst (ch_message c p clock)) = ack_learn (cl_ack c) w.
Proof.
  apply (chandled_lift _ _ _ (fun x => cl_ack x = cl_ack c \/ exists w, cl_ack x = ack_learn (cl_ack c) w)
           _ _ (fun _ _ E => E) (ch_message_handled1 c p clock)).
  intros c1 c2 [? ? Hc|n d d2 _ _|n]; [left; apply (cl_moved_io _ _ _ _ Hc)|left; reflexivity|right; exists n; reflexivity].
Qed.

Lemma ch_loop_learns clock fuel c input acc : learned (cl_ack c) (cl_ack (fst (ch_loop fuel c input clock acc))).
Proof.
  apply (run_invariant _ _ _ CVOk cl_de cupd_de cwire CVPanic (clh clock) _ creply_of (fun f s i a => ch_loop f s i clock a)
           (fun _ _ _ => eq_refl) (ch_loop_S clock) (fun c1 => learned (cl_ack c) (cl_ack c1))).
  - intros c1 d H. exact H.
  - intros c1 p H. rewrite clh_fst. exact (learned_step _ _ _ H (ch_message_ack c1 p clock)).
  - exists []. reflexivity.
Qed.

Lemma ch_loop_prefix clock fuel c input acc c' rs : ch_loop fuel c input clock acc = (c', COk rs) -> exists more, rs = acc ++ more.
Proof.
  intros E. destruct (run_prefix _ _ _ CVOk cl_de cupd_de cwire CVPanic (clh clock) _ creply_of (fun f s i a => ch_loop f s i clock a)
                        (fun _ _ _ => eq_refl) (ch_loop_S clock) fuel c input acc) as [more [v H]].
  rewrite E in H. exists more. destruct v; [injection H as ->; reflexivity|discriminate..].
Qed.

Theorem client_input_ack c input clock : ser_ok (cl_ser c) ->
  let '(a, due) := ack_step (cl_ack c) (lenN input) in
  (exists ws, cl_ack (fst (client_handle_input c input clock)) = fold_left ack_learn ws a) /\
  match due, snd (client_handle_input c input clock) with
  | Some n, COk rs => exists b ser' more, send_message (cl_ser c) (MAcknowledgement n) clock 0 false false = Ok (b, ser') /\ rs = CPacket b false :: more
  | _, _ => True
  end.
Proof.
  intros Hs. destruct (client_handle_input_loop c input clock Hs) as [ser0 [acc0 [-> [_ Hacc]]]].
  set (cm := cupd_ack (cupd_ser c ser0) _). pose proof (fun f => ch_loop_learns clock f cm input acc0) as Hl. subst cm.
  destruct (ack_step (cl_ack c) (lenN input)) as [a [n|]]; cbn [fst snd] in *; (split; [apply Hl|]); [|exact I].
  destruct Hacc as [b [Eb ->]]. destruct (ch_loop _ _ input clock [CPacket b false]) as [c' r] eqn:El. cbn [snd]. destruct r as [rs|e|]; try exact I.
  destruct (ch_loop_prefix _ _ _ _ _ _ _ El) as [more ->]. exists b, ser0, more. split; [exact Eb|reflexivity].
Qed.
