(* C02, command phase (connect): what the client's request_connection writes, the server - given that packet - surfaces as a
   connection request for the same application; accepting it produces a packet that takes the client to Connected with the
   accepted event.  Byte level end to end: AMF0 round trip of the commands (C04/C13), chunk-layer link (Link, InteropProofs), handlers. *)
From Coq Require Import Lia String.
From RML Require Import Model.Base Model.Utf8 Model.Chunk Model.ChunkSer Model.ChunkDe Model.Amf0 Model.Messages Model.Float Model.SessionCommon
  Model.Server Model.Client Gen.Consts Spec.Amf0Wire
  Proofs.Amf0Proofs Proofs.MessageProofs Proofs.ConfigProofs Proofs.InteropProofs Proofs.FloatProofs Proofs.SessionFrame Proofs.SessionPartition Proofs.ClientPartition Proofs.MetadataProofs.
Local Open Scope N_scope.

Lemma send_message_inv ser m ts sid f d b ser' :
  send_message ser m ts sid f d = Ok (b, ser') ->
  exists tid body, to_payload m = Ok (tid, body) /\
    ChunkSer.serialize ser {| m_ts := ts; m_tid := tid; m_sid := sid; m_data := body |} f d = Ok (b, ser').
Proof.
  unfold send_message. destruct (to_payload m) as [[tid body]|e|x|]; try discriminate.
  intros E. exists tid, body. split; [reflexivity|].
  destruct (ChunkSer.serialize ser _ f d) as [r|e|x|]; try discriminate. injection E as ->. reflexivity.
Qed.

Lemma to_payload_tid m tid body : to_payload m = Ok (tid, body) -> tid = message_type_id m.
Proof.
  unfold to_payload. destruct (message_body m) as [bb| | |]; cbn [obind]; intros E; try discriminate E.
  injection E as <- _. reflexivity.
Qed.

Lemma link_send ser de m ts sid f d b ser' :
  Link ser de -> msg_ok m -> message_type_id m < 256 -> message_type_id m <> 1 -> ts < 4294967296 -> sid < 4294967296 ->
  send_message ser m ts sid f d = Ok (b, ser') ->
  exists p de1 de3, of_payload (m_tid p) (m_data p) = Ok m /\ m_sid p = sid /\ m_ts p = ts /\
    get_next_message de b = (de1, DMsg p) /\ get_next_message de1 [] = (de3, DNone) /\ Link ser' de3.
Proof.
  intros HL Hok Ht Ht1 Hts Hsid Hsend.
  destruct (send_message_inv _ _ _ _ _ _ _ _ Hsend) as [tid [body [Etp Es]]].
  pose proof (msg_roundtrip m tid body Hok Etp) as Hof. rewrite (to_payload_tid m tid body Etp) in Es, Hof.
  set (p := {| m_ts := ts; m_tid := message_type_id m; m_sid := sid; m_data := body |}) in *.
  destruct (link_serialized ser de p f d b ser' HL Hts Ht Ht1 Hsid Es) as [de1 [de3 H]].
  exists p, de1, de3.
  split; [exact Hof|]. split; [reflexivity|]. split; [reflexivity|exact H].
Qed.

Lemma de_after_other p m d : of_payload (m_tid p) (m_data p) = Ok m -> message_type_id m <> 1 -> de_after p d = d.
Proof. intros Hof Ht. unfold de_after. rewrite Hof. destruct m; try reflexivity. exfalso. apply Ht. reflexivity. Qed.

Lemma server_reads_sent s ser m ts sid f d b ser' clock :
  Link ser (sv_de s) -> ser_ok (sv_ser s) -> msg_ok m -> message_type_id m < 256 -> message_type_id m <> 1 ->
  ts < 4294967296 -> sid < 4294967296 -> send_message ser m ts sid f d = Ok (b, ser') ->
  exists p de1 de3 bs ser0,
    of_payload (m_tid p) (m_data p) = Ok m /\ m_sid p = sid /\ m_ts p = ts /\
    prelude (sv_ser s) (sv_ack s) (lenN b) clock bs ser0 /\ Link ser' de3 /\
    server_handle_input s b clock =
      (let '(s1, r) := h_message (upd_de (upd_ack (upd_ser s ser0) (fst (ack_step (sv_ack s) (lenN b)))) de1) p clock in
       match r with ROk rs => (upd_de s1 de3, ROk (map (fun x => SPacket x false) bs ++ rs)) | _ => (s1, r) end).
Proof.
  intros HL Hser Hok Ht Ht1 Hts Hsid Hsend.
  destruct (link_send ser (sv_de s) m ts sid f d b ser' HL Hok Ht Ht1 Hts Hsid Hsend) as [p [de1 [de3 [Hof [Hs [Hts' [G1 [G2 HL2]]]]]]]].
  rewrite <- (de_after_other p m de1 Hof Ht1) in G2.
  destruct (server_reads s b clock p de1 (de_after p de1) de3 Hser G1 (fun ser0 a0 => h_message_de_after _ p clock) G2) as [bs [ser0 [Hp E]]].
  exists p, de1, de3, bs, ser0. repeat (split; [assumption|]). exact E.
Qed.

Lemma client_reads_sent c ser m ts sid f d b ser' clock :
  Link ser (cl_de c) -> ser_ok (cl_ser c) -> msg_ok m -> message_type_id m < 256 -> message_type_id m <> 1 ->
  ts < 4294967296 -> sid < 4294967296 -> send_message ser m ts sid f d = Ok (b, ser') ->
  exists p de1 de3 bs ser0,
    of_payload (m_tid p) (m_data p) = Ok m /\ m_sid p = sid /\ m_ts p = ts /\
    prelude (cl_ser c) (cl_ack c) (lenN b) clock bs ser0 /\ Link ser' de3 /\
    client_handle_input c b clock =
      (let '(c1, r) := ch_message (cupd_de (cupd_ack (cupd_ser c ser0) (fst (ack_step (cl_ack c) (lenN b)))) de1) p clock in
       match r with COk rs => (cupd_de c1 de3, COk (map (fun x => CPacket x false) bs ++ rs)) | _ => (c1, r) end).
Proof.
  intros HL Hser Hok Ht Ht1 Hts Hsid Hsend.
  destruct (link_send ser (cl_de c) m ts sid f d b ser' HL Hok Ht Ht1 Hts Hsid Hsend) as [p [de1 [de3 [Hof [Hs [Hts' [G1 [G2 HL2]]]]]]]].
  rewrite <- (de_after_other p m de1 Hof Ht1) in G2.
  destruct (client_reads c b clock p de1 (de_after p de1) de3 Hser G1 (fun ser0 a0 => ch_message_de_after _ p clock) G2) as [bs [ser0 [Hp E]]].
  exists p, de1, de3, bs, ser0. repeat (split; [assumption|]). exact E.
Qed.

(* the handlers dispatch on literal command names and property keys: decide those comparisons by evaluation *)
Ltac eqb_strs :=
  repeat match goal with
  | |- context [bytes_eqb (str ?a) (str ?b)] =>
      let v := eval vm_compute in (bytes_eqb (str a) (str b)) in change (bytes_eqb (str a) (str b)) with v; cbv iota
  end.

Definition strip_slash (app0 : bytes) : bytes := match rev app0 with 47 :: r => rev r | _ => app0 end.

Definition connect_props (c : client) (app : bytes) : list (bytes * value) :=
  [(str "app", VString app); (str "flashVer", VString (cc_flash (cl_cfg c))); (str "objectEncoding", VNumber 0)]
  ++ match cc_tcurl (cl_cfg c) with Some u => [(str "tcUrl", VString u)] | None => [] end.

(* The strings must be valid UTF-8 for the AMF0 round trip.  The transaction id is a u32 in ClientSession; it travels as an AMF0
   number and both sides read it back with f64_to_u32, which is exact on u32 values only. *)
Definition strings_ok (c : client) (app : bytes) : Prop :=
  utf8_valid app = true /\ utf8_valid (cc_flash (cl_cfg c)) = true /\
  (forall u, cc_tcurl (cl_cfg c) = Some u -> utf8_valid u = true) /\ cl_next_tr c < 4294967296.

Lemma connect_values_wf c app : strings_ok c app ->
  wf_values (VString (str "connect") :: VNumber (u32_to_f64 (cl_next_tr c)) :: VObject (connect_props c app) :: []).
Proof.
  intros [Ha [Hf [Hu Hn]]]. cbn [wf_values]. split; [reflexivity|]. split; [apply u32_to_f64_bound; exact Hn|]. split; [|exact I].
  apply wf_value_object. unfold connect_props. destruct (cc_tcurl (cl_cfg c)) as [u|] eqn:E; cbn [List.app map fst].
  - split.
    + apply nodupb_sound. reflexivity.
    + cbn [wf_props wf_value]. repeat split; try reflexivity; try assumption. apply (Hu u eq_refl).
  - split.
    + apply nodupb_sound. reflexivity.
    + cbn [wf_props wf_value]. repeat split; try reflexivity; assumption.
Qed.

Lemma server_connect_handler s c app clock sid :
  h_command s sid (str "connect") (u32_to_f64 (cl_next_tr c)) (VObject (connect_props c app)) [] clock =
  (upd_reqs (upd_objenc s 0) (insert (sv_next_req s) (RConnection (strip_slash app) (u32_to_f64 (cl_next_tr c))) (sv_reqs s)) (sv_next_req s + 1),
   ROk [SEvent (EvConnectionRequested (sv_next_req s) (strip_slash app))]).
Proof.
  unfold h_command. eqb_strs. unfold h_connect, connect_props, new_request, strip_slash. cbn [List.app prop_get]. eqb_strs. reflexivity.
Qed.

Lemma h_command_frame s sid name tr obj args clock : sv_de (fst (h_command s sid name tr obj args clock)) = sv_de s.
Proof. apply h_command_de. Qed.

(* C02, connect request: the client's request_connection yields one packet (or the declared error); the server, given it, raises the connection request for
   the application (one trailing '/' removed) under a fresh request id and remembers the client's transaction; chunk layers linked *)
Theorem connect_request_delivered c s app clock sclock :
  Link (cl_ser c) (sv_de s) -> ser_ok (sv_ser s) -> cl_state c = Disconnected -> strings_ok c app -> clock < 4294967296 ->
  (exists e, client_request_connection c app clock = (fst (client_request_connection c app clock), CErr e)) \/
  exists b c1 s1 rs,
    client_request_connection c app clock = (c1, COk [CPacket b false]) /\
    cl_state c1 = Disconnected /\ lookup (cl_next_tr c) (cl_trs c1) = Some (TConnection app) /\
    server_handle_input s b sclock = (s1, ROk rs) /\
    events rs = [EvConnectionRequested (sv_next_req s) (strip_slash app)] /\
    lookup (sv_next_req s) (sv_reqs s1) = Some (RConnection (strip_slash app) (u32_to_f64 (cl_next_tr c))) /\
    sv_connected s1 = sv_connected s /\ sv_fms s1 = sv_fms s /\ sv_objenc s1 = 0 /\
    Link (cl_ser c1) (sv_de s1) /\ ser_ok (sv_ser s1) /\ cl_de c1 = cl_de c /\ cl_cfg c1 = cl_cfg c /\
    (ack_window (sv_ack s) = None -> sv_ser s1 = sv_ser s /\ rs = [SEvent (EvConnectionRequested (sv_next_req s) (strip_slash app))]).
Proof.
  intros HL Hser Hst Hstr Hclk.
  unfold client_request_connection. rewrite Hst. unfold new_transaction. cbv zeta. fold (connect_props c app).
  set (c0 := cupd_trs c (insert (cl_next_tr c) (TConnection app) (cl_trs c)) (cl_next_tr c + 1)).
  set (M := MAmf0Command (str "connect") (u32_to_f64 (cl_next_tr c)) (VObject (connect_props c app)) []).
  unfold cone_packet, csending. change (cl_ser c0) with (cl_ser c).
  pose proof (send_message_total (cl_ser c) M clock 0 false false (Link_ser_ok _ _ HL)) as Ht.
  destruct (send_message (cl_ser c) M clock 0 false false) as [[b ser']|e|x|] eqn:Es; try contradiction.
  2:{ left. eexists. reflexivity. }
  right.
  destruct (server_reads_sent s (cl_ser c) M clock 0 false false b ser' sclock HL Hser (connect_values_wf c app Hstr)
              ltac:(reflexivity) ltac:(discriminate) Hclk ltac:(reflexivity) Es) as [p [de1 [de3 [bs [ser0 [Hof [Hsid [_ [Hp [HL2 E]]]]]]]]]].
  unfold h_message in E. rewrite Hof, Hsid in E. unfold M in E. rewrite server_connect_handler in E.
  exists b, (cupd_ser c0 ser'). eexists. eexists. split; [reflexivity|]. split; [exact Hst|].
  split; [apply ChunkSpecProofs.lookup_insert_same|]. split; [exact E|]. split; [apply events_packets|].
  split; [apply ChunkSpecProofs.lookup_insert_same|]. repeat (split; [reflexivity|]).
  split; [exact HL2|]. split; [exact (prelude_ser_ok _ _ _ _ _ _ Hser Hp)|]. repeat (split; [reflexivity|]).
  intros Hw. destruct (prelude_quiet _ _ _ _ _ _ ltac:(unfold ack_step; rewrite Hw; reflexivity) Hp) as [-> ->]. split; reflexivity.
Qed.

Definition accept_info (s : server) (app : bytes) : value :=
  VObject [(str "level", VString (str "status")); (str "code", VString (str "NetConnection.Connect.Success"));
           (str "description", VString (str "Successfully connected on app: " ++ app));
           (str "objectEncoding", VNumber (sv_objenc s))].
Definition accept_obj (s : server) : value :=
  VObject [(str "fmsVer", VString (sv_fms s)); (str "capabilities", VNumber 4629418941960159232)].

Definition accept_strings_ok (s : server) (app : bytes) : Prop :=
  utf8_valid (sv_fms s) = true /\ utf8_valid (str "Successfully connected on app: " ++ app) = true /\ sv_objenc s < 18446744073709551616.

Lemma accept_values_wf s app trn : accept_strings_ok s app -> trn < 4294967296 ->
  wf_values (VString (str "_result") :: VNumber (u32_to_f64 trn) :: accept_obj s :: [accept_info s app]).
Proof.
  intros [Hf [Hd Ho]] Hn. cbn [wf_values]. split; [reflexivity|]. split; [apply u32_to_f64_bound; exact Hn|].
  split; [|split; [|exact I]]; apply wf_value_object; cbn [map fst accept_obj accept_info]; (split;
    [apply nodupb_sound; reflexivity|cbn [wf_props wf_value]; repeat split; try reflexivity; try assumption; try lia]).
Qed.

Lemma ch_command_result c tr obj args clock : ch_command c (str "_result") tr obj args clock = ch_result c tr obj args clock.
Proof. unfold ch_command. eqb_strs. reflexivity. Qed.

Lemma ch_result_connect c trn app obj args clock :
  ser_ok (cl_ser c) -> trn < 4294967296 -> lookup trn (cl_trs c) = Some (TConnection app) -> 1 <= cc_chunk (cl_cfg c) <= 2147483647 ->
  exists b1 ser1 b2 ser2,
    send_message (cl_ser c) (MWindowAcknowledgement (cc_window (cl_cfg c))) clock 0 false false = Ok (b1, ser1) /\
    ChunkSer.set_max_chunk_size ser1 (cc_chunk (cl_cfg c)) 0 = Ok (b2, ser2) /\ s_max ser2 = cc_chunk (cl_cfg c) /\
    ch_result c (u32_to_f64 trn) obj args clock =
      (cupd_ser (cupd_app (cupd_state (cupd_trs c (remove trn (cl_trs c)) (cl_next_tr c)) Connected) (Some app)) ser2,
       COk [CPacket b1 false; CEvent CConnectionAccepted; CPacket b2 false]).
Proof.
  intros Hs Htrn Htr Hchunk.
  unfold ch_result, take_transaction. rewrite (u32_roundtrip trn Htrn), Htr. cbv zeta. unfold csending.
  cbn [cl_ser cupd_app cupd_state cupd_trs].
  destruct (send_fits (cl_ser c) (MWindowAcknowledgement (cc_window (cl_cfg c))) clock 0 false false 4 Hs) as [b1 [ser1 [Esm Hsm]]]; [|lia|].
  { eexists. eexists. split; [reflexivity|apply N.le_refl]. }
  rewrite Esm.
  cbn [cl_ser cupd_ser].
  destruct (ser_chunk_size_refused ser1 (cc_chunk (cl_cfg c)) 0 Hsm) as [_ Hset]. destruct (Hset Hchunk) as [b2 [ser2 [Eset Hmax]]].
  rewrite Eset. exists b1, ser1, b2, ser2. repeat split; assumption || reflexivity.
Qed.

(* C02, connect accept: the server's accept of a registered connection request yields one packet (or the declared body-too-large
   error).  The client, given it, completes its connect transaction: after `pre` (an Acknowledgement, if one fell due) it returns
   its window announcement, the accepted event and its chunk-size announcement, and is Connected to the application it asked for.
   The last conjunct names the two announcements as serializer calls: connect_ready hands them on to the server. *)
Theorem connect_accept_delivered s c n app' trn app clock cclock :
  Link (sv_ser s) (cl_de c) -> ser_ok (cl_ser c) -> ser_ok (sv_ser s) ->
  lookup n (sv_reqs s) = Some (RConnection app' (u32_to_f64 trn)) -> trn < 4294967296 ->
  lookup trn (cl_trs c) = Some (TConnection app) ->
  accept_strings_ok s app' -> clock < 4294967296 -> cclock < 4294967296 ->
  1 <= cc_chunk (cl_cfg c) <= 2147483647 ->
  (exists e, snd (server_accept s n clock) = RErr e) \/
  exists b s2 c2 rs b1 b2 pre,
    server_accept s n clock = (s2, ROk [SPacket b false]) /\
    sv_connected s2 = true /\ sv_app s2 = Some app' /\ lookup n (sv_reqs s2) = None /\
    client_handle_input c b cclock = (c2, COk rs) /\
    rs = pre ++ [CPacket b1 false; CEvent CConnectionAccepted; CPacket b2 false] /\ cevents pre = [] /\
    cl_state c2 = Connected /\ cl_app c2 = Some app /\ lookup trn (cl_trs c2) = None /\
    Link (sv_ser s2) (cl_de c2) /\ ser_ok (cl_ser c2) /\ s_max (cl_ser c2) = cc_chunk (cl_cfg c) /\
    cl_cfg c2 = cl_cfg c /\ cl_next_tr c2 = cl_next_tr c /\ cl_stream c2 = cl_stream c /\
    sv_de s2 = sv_de s /\ sv_ack s2 = sv_ack s /\ sv_streams s2 = sv_streams s /\ sv_next_stream s2 = sv_next_stream s /\ ser_ok (sv_ser s2) /\
    (snd (ack_step (cl_ack c) (lenN b)) = None -> pre = [] /\ exists ser1,
       send_message (cl_ser c) (MWindowAcknowledgement (cc_window (cl_cfg c))) cclock 0 false false = Ok (b1, ser1) /\
       ChunkSer.set_max_chunk_size ser1 (cc_chunk (cl_cfg c)) 0 = Ok (b2, cl_ser c2)).
Proof.
  intros HL Hcser Hsser Hreq Htrn Htr Hstr Hclk Hcclk Hchunk.
  unfold server_accept. rewrite Hreq. cbv zeta. unfold accept_connection. cbv zeta.
  set (s1 := upd_conn (upd_reqs s (remove n (sv_reqs s)) (sv_next_req s)) (Some app') true).
  change (MAmf0Command (str "_result") (u32_to_f64 trn) _ _) with (MAmf0Command (str "_result") (u32_to_f64 trn) (accept_obj s) [accept_info s app']).
  set (M := MAmf0Command (str "_result") (u32_to_f64 trn) (accept_obj s) [accept_info s app']).
  unfold one_packet, sending. change (sv_ser s1) with (sv_ser s).
  pose proof (send_message_total (sv_ser s) M clock 0 false false Hsser) as Ht.
  destruct (send_message (sv_ser s) M clock 0 false false) as [[b ser']|e|x|] eqn:Es; try contradiction.
  2:{ left. eexists. reflexivity. }
  right.
  destruct (client_reads_sent c (sv_ser s) M clock 0 false false b ser' cclock HL Hcser (accept_values_wf s app' trn Hstr Htrn)
              ltac:(reflexivity) ltac:(discriminate) Hclk ltac:(reflexivity) Es) as [p [de1 [de3 [bs [ser0 [Hof [_ [_ [Hp [HL2 E]]]]]]]]]].
  set (c0 := cupd_de (cupd_ack (cupd_ser c ser0) (fst (ack_step (cl_ack c) (lenN b)))) de1) in E.
  destruct (ch_result_connect c0 trn app (accept_obj s) [accept_info s app'] cclock (prelude_ser_ok _ _ _ _ _ _ Hcser Hp) Htrn Htr Hchunk)
    as [b1 [ser1 [b2 [ser2 [Esend1 [Esend2 [Hmax2 Hm]]]]]]].
  unfold c0 in Esend1, Esend2, Hmax2. cbn [cl_ser cl_cfg cupd_de cupd_ack cupd_ser] in Esend1, Esend2, Hmax2.
  unfold ch_message in E. rewrite Hof in E. unfold M in E. rewrite ch_command_result, Hm in E.
  exists b, (upd_ser s1 ser'). eexists. eexists. exists b1, b2, (map (fun x => CPacket x false) bs).
  split; [reflexivity|]. split; [reflexivity|]. split; [reflexivity|].
  split; [apply ChunkSpecProofs.lookup_remove_same|]. split; [exact E|]. split; [reflexivity|].
  split; [rewrite <- (app_nil_r (map _ bs)); apply cevents_packets|]. split; [reflexivity|]. split; [reflexivity|].
  split; [apply ChunkSpecProofs.lookup_remove_same|]. split; [exact HL2|]. split; [unfold ser_ok; cbn [cl_ser cupd_de cupd_ser]; lia|].
  split; [exact Hmax2|]. repeat (split; [reflexivity|]).
  split; [exact Ht|].
  intros Hq. destruct (prelude_quiet _ _ _ _ _ _ Hq Hp) as [-> Hser0]. split; [reflexivity|]. exists ser1.
  rewrite Hser0 in Esend1. split; [exact Esend1|exact Esend2].
Qed.

(* At connect time the server has not yet learned an acknowledgement window (the client announces its window only after the
   connection is accepted), so the server emits nothing but what the application's accept produces. *)
Theorem connect_completes c s app clock sclock aclock cclock :
  Link (cl_ser c) (sv_de s) -> Link (sv_ser s) (cl_de c) -> ser_ok (cl_ser c) -> ser_ok (sv_ser s) ->
  cl_state c = Disconnected -> strings_ok c app -> ack_window (sv_ack s) = None ->
  utf8_valid (sv_fms s) = true -> utf8_valid (str "Successfully connected on app: " ++ strip_slash app) = true ->
  clock < 4294967296 -> aclock < 4294967296 -> cclock < 4294967296 -> 1 <= cc_chunk (cl_cfg c) <= 2147483647 ->
  (* either a declared error (a body exceeding the chunk layer's 16 MiB limit) ... *)
  (exists e, client_request_connection c app clock = (fst (client_request_connection c app clock), CErr e)) \/
  (exists b c1 s1 rs e, client_request_connection c app clock = (c1, COk [CPacket b false]) /\
     server_handle_input s b sclock = (s1, ROk rs) /\ snd (server_accept s1 (sv_next_req s) aclock) = RErr e) \/
  (* ... or the whole exchange *)
  exists b1 c1 s1 b2 s2 c2 rs pre w1 w2,
    client_request_connection c app clock = (c1, COk [CPacket b1 false]) /\
    server_handle_input s b1 sclock = (s1, ROk [SEvent (EvConnectionRequested (sv_next_req s) (strip_slash app))]) /\
    server_accept s1 (sv_next_req s) aclock = (s2, ROk [SPacket b2 false]) /\
    client_handle_input c1 b2 cclock = (c2, COk rs) /\
    rs = pre ++ [CPacket w1 false; CEvent CConnectionAccepted; CPacket w2 false] /\ cevents pre = [] /\
    cl_state c2 = Connected /\ cl_app c2 = Some app /\
    sv_connected s2 = true /\ sv_app s2 = Some (strip_slash app) /\
    Link (sv_ser s2) (cl_de c2) /\ s_max (cl_ser c2) = cc_chunk (cl_cfg c).
Proof.
  intros HL1 HL2 Hcs Hss Hst Hstr Hw Hfms Hdesc Hclk Haclk Hcclk Hchunk.
  destruct (connect_request_delivered c s app clock sclock HL1 Hss Hst Hstr Hclk) as [Herr | [b1 [c1 [s1 [rs1 [E1 [Hst1 [Htr1 [E2 [Hev [Hreq [Hconn [Hf1 [Ho1 [HL1' [Hss1 [Hde1 [Hcfg1 Hna]]]]]]]]]]]]]]]]]]; [left; exact Herr|].
  destruct (Hna Hw) as [Hser1 ->].
  assert (Hcs1 : ser_ok (cl_ser c1)).
  { pose proof (client_step_good c (CopConnect app clock) Hcs) as [_ Hg]. cbn [client_step] in Hg. rewrite E1 in Hg. exact Hg. }
  assert (HL2' : Link (sv_ser s1) (cl_de c1)) by (rewrite Hser1, Hde1; exact HL2).
  assert (Hstr2 : accept_strings_ok s1 (strip_slash app)) by (split; [rewrite Hf1; exact Hfms|split; [exact Hdesc|rewrite Ho1; lia]]).
  destruct Hstr as [_ [_ [_ Hn]]].
  destruct (connect_accept_delivered s1 c1 (sv_next_req s) (strip_slash app) (cl_next_tr c) app aclock cclock HL2' Hcs1 Hss1 Hreq Hn Htr1 Hstr2 Haclk Hcclk
              ltac:(rewrite Hcfg1; exact Hchunk))
    as [[e He] | [b2 [s2 [c2 [rs [w1 [w2 [pre [A1 [A2 [A3 [A4 [A5 [A6 [A7 [A8 [A9 [A10 [A11 [A12 [A13 _]]]]]]]]]]]]]]]]]]]]].
  - right. left. exists b1, c1, s1. eexists. exists e. split; [exact E1|]. split; [exact E2|exact He].
  - right. right. exists b1, c1, s1, b2, s2, c2, rs, pre, w1, w2.
    repeat (split; [assumption|]). rewrite A13, Hcfg1. reflexivity.
Qed.

(* the hypotheses of connect_completes are satisfiable: a freshly created client against a server state whose serializer has
   emitted nothing the client has not yet read *)
Example connect_hypotheses_satisfiable :
  let c := client_new {| cc_flash := str "v"; cc_buffer := 0; cc_window := 2500000; cc_chunk := 4096; cc_tcurl := None |} in
  let s := {| sv_ser := ser_init; sv_de := de_init; sv_app := None; sv_reqs := []; sv_next_req := 0; sv_connected := false;
              sv_fms := str "FMS/3,0,1,123"; sv_objenc := 0; sv_streams := []; sv_next_stream := 1;
              sv_ack := {| ack_window := None; ack_since := 0 |} |} in
  let app := str "live/" in
  Link (cl_ser c) (sv_de s) /\ Link (sv_ser s) (cl_de c) /\ ser_ok (cl_ser c) /\ ser_ok (sv_ser s) /\
  cl_state c = Disconnected /\ strings_ok c app /\ ack_window (sv_ack s) = None /\
  utf8_valid (sv_fms s) = true /\ utf8_valid (str "Successfully connected on app: " ++ strip_slash app) = true /\
  1 <= cc_chunk (cl_cfg c) <= 2147483647 /\ strip_slash app = str "live".
Proof.
  cbv zeta. split; [exact Link_init|]. split; [exact Link_init|]. split; [vm_compute; discriminate|]. split; [vm_compute; discriminate|].
  split; [reflexivity|]. split; [vm_compute; repeat split; try discriminate; reflexivity|]. split; [reflexivity|]. split; [vm_compute; reflexivity|].
  split; [vm_compute; reflexivity|]. split; [vm_compute; split; discriminate|vm_compute; reflexivity].
Qed.
