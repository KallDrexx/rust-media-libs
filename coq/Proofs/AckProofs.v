(* C17: acknowledgement accounting (the counter at the top of handle_input in both sessions). *)
From Coq Require Import ZArith Lia ZifyN ZifyBool ZifyNat.
From RML Require Import Model.Base Model.SessionCommon.
Local Open Scope N_scope.

(* the observable history of one session: input calls of a given size, window announcements taking effect
   between calls (the window is learned while processing a message, after the counting step of that call) *)
Inductive aev := ACall (len : N) | ALearn (w : N).

(* run: final state, acknowledgements emitted (one per call at most, in order, None = no ack in that call) *)
Fixpoint ack_run (a : ack_state) (evs : list aev) : ack_state * list (option N) :=
  match evs with
  | [] => (a, [])
  | ACall len :: r => let '(a1, o) := ack_step a len in let '(a2, os) := ack_run a1 r in (a2, o :: os)
  | ALearn w :: r => ack_run (ack_learn a w) r
  end.

Definition u32 (n : N) : Prop := n < 4294967296.

Lemma ack_step_exact a len : ack_since a + len < 4294967296 ->
  ack_step a len =
  match ack_window a with
  | Some w => if w <=? ack_since a + len then ({| ack_window := Some w; ack_since := 0 |}, Some (ack_since a + len))
              else ({| ack_window := Some w; ack_since := ack_since a + len |}, None)
  | None => (a, None)
  end.
Proof.
  intros Hs. unfold ack_step, u32_sat_add. destruct (ack_window a) as [w|]; [|reflexivity].
  replace (N.min len 4294967295) with len by lia. replace (N.min (ack_since a + len) 4294967295) with (ack_since a + len) by lia.
  reflexivity.
Qed.

Lemma ack_step_spec a w len :
  ack_window a = Some w -> ack_since a + len < 4294967296 ->
  (w <= ack_since a + len ->
     ack_step a len = ({| ack_window := Some w; ack_since := 0 |}, Some (ack_since a + len))) /\
  (ack_since a + len < w ->
     ack_step a len = ({| ack_window := Some w; ack_since := ack_since a + len |}, None)).
Proof.
  intros Hw Hs. rewrite (ack_step_exact a len Hs), Hw. split; intros H.
  - replace (w <=? ack_since a + len) with true by lia. reflexivity.
  - replace (w <=? ack_since a + len) with false by lia. reflexivity.
Qed.

Lemma ack_step_window a len : ack_window (fst (ack_step a len)) = ack_window a.
Proof. unfold ack_step. destruct (ack_window a) as [w|] eqn:E; [destruct (w <=? _); reflexivity|exact E]. Qed.

Lemma ack_step_bound a w len a' o :
  ack_window a = Some w -> 1 <= w -> ack_step a len = (a', o) -> ack_window a' = Some w /\ ack_since a' < w.
Proof.
  intros Hw H1 H. unfold ack_step in H. rewrite Hw in H.
  destruct (w <=? u32_sat_add (ack_since a) (N.min len 4294967295)) eqn:E; inversion H; subst; cbn; split; try reflexivity; try assumption; lia.
Qed.

(* saturation (repaired behaviour at the u32 limit): the reported count is capped, never wrapped *)
Lemma ack_step_saturates a w len a' n :
  ack_window a = Some w -> ack_step a len = (a', Some n) -> n <= 4294967295 /\ w <= n /\ n <= ack_since a + len.
Proof.
  intros Hw H. unfold ack_step, u32_sat_add in H. rewrite Hw in H.
  destruct (w <=? N.min (ack_since a + N.min len 4294967295) 4294967295) eqn:E; inversion H; subst. lia.
Qed.

Definition sum_acks (os : list (option N)) : N := fold_right (fun o s => match o with Some n => n + s | None => s end) 0 os.

(* bytes of the calls that are counted: those made while a window is known *)
Fixpoint counted (a : ack_state) (evs : list aev) : N :=
  match evs with
  | [] => 0
  | ACall len :: r => (match ack_window a with Some _ => len | None => 0 end) + counted (fst (ack_step a len)) r
  | ALearn w :: r => counted (ack_learn a w) r
  end.

(* no call pushes the count to the u32 limit (otherwise the count saturates: ack_step_saturates) *)
Fixpoint no_saturation (a : ack_state) (evs : list aev) : Prop :=
  match evs with
  | [] => True
  | ACall len :: r => ack_since a + len < 4294967296 /\ no_saturation (fst (ack_step a len)) r
  | ALearn w :: r => no_saturation (ack_learn a w) r
  end.

(* conservation over a whole history: every byte received in a call after the window was learned is
   acknowledged exactly once or still outstanding *)
Theorem ack_conservation evs : forall a,
  no_saturation a evs ->
  let '(a', os) := ack_run a evs in
  sum_acks os + ack_since a' = ack_since a + counted a evs.
Proof.
  induction evs as [|[len|w] r IH]; intros a Hns; cbn [no_saturation ack_run counted] in *.
  - cbn. lia.
  - destruct Hns as [Hs Hr]. specialize (IH _ Hr). rewrite (ack_step_exact a len Hs) in *.
    destruct (ack_window a) as [w|]; [destruct (w <=? ack_since a + len)|]; cbn [fst] in *;
      destruct (ack_run _ r) as [a2 os]; unfold sum_acks in *; cbn [fold_right ack_since] in *; lia.
  - exact (IH _ Hns).
Qed.

Lemma ack_step_out a len : ack_since a + len < 4294967296 ->
  snd (ack_step a len) =
  match ack_window a with
  | Some w => if w <=? ack_since a + len then Some (ack_since a + len) else None
  | None => None
  end.
Proof.
  intros Hs. rewrite (ack_step_exact a len Hs). destruct (ack_window a) as [w|]; [destruct (w <=? _)|]; reflexivity.
Qed.

(* "exactly those calls": the emitted acknowledgements of a history are determined call by call *)
Theorem ack_exactly evs : forall a,
  no_saturation a evs ->
  forall pre len post, evs = pre ++ ACall len :: post ->
  let a_before := fst (ack_run a pre) in
  nth_error (snd (ack_run a evs)) (length (filter (fun e => match e with ACall _ => true | _ => false end) pre)) =
    Some (match ack_window a_before with
          | Some w => if w <=? ack_since a_before + len then Some (ack_since a_before + len) else None
          | None => None
          end).
Proof.
  intros a Hns pre len post ->. cbv zeta. revert a Hns.
  induction pre as [|[l0|w0] pre IH]; intros a Hns; cbn [app ack_run filter length no_saturation fst] in *.
  - destruct Hns as [Hs _]. rewrite <- (ack_step_out a len Hs).
    destruct (ack_step a len) as [a1 o]. destruct (ack_run a1 post). reflexivity.
  - destruct Hns as [_ Hr]. destruct (ack_step a l0) as [a1 o]. specialize (IH a1 Hr).
    destruct (ack_run a1 (pre ++ ACall len :: post)). destruct (ack_run a1 pre). exact IH.
  - apply IH, Hns.
Qed.

(* after every call of a history with windows >= 1, fewer than W bytes are outstanding *)
Theorem ack_outstanding evs : forall a,
  (forall w, ack_window a = Some w -> 1 <= w /\ ack_since a < w \/ True) ->
  Forall (fun e => match e with ALearn w => 1 <= w | _ => True end) evs ->
  forall pre len post, evs = pre ++ ACall len :: post ->
  let a_after := fst (ack_run a (pre ++ [ACall len])) in
  forall w, ack_window a_after = Some w -> 1 <= w -> ack_since a_after < w.
Proof.
  intros a _ _ pre len post _. cbv zeta. revert a.
  induction pre as [|[l0|w0] pre IH]; intros a w Hw H1; cbn [app ack_run] in *.
  - destruct (ack_step a len) as [a1 o] eqn:Es. cbn [fst] in *.
    pose proof (ack_step_window a len) as Ha. rewrite Es in Ha. cbn [fst] in Ha. rewrite Ha in Hw.
    exact (proj2 (ack_step_bound a w len a1 o Hw H1 Es)).
  - destruct (ack_step a l0) as [a1 o]. specialize (IH a1 w).
    destruct (ack_run a1 (pre ++ [ACall len])) as [a2 os]. exact (IH Hw H1).
  - exact (IH _ w Hw H1).
Qed.

Example ack_example :
  ack_run {| ack_window := None; ack_since := 0 |} [ACall 10; ALearn 5; ACall 3; ACall 3; ACall 1; ALearn 2; ACall 1; ACall 1] =
  ({| ack_window := Some 2; ack_since := 1 |}, [None; None; Some 6; None; Some 2; None]).
Proof. reflexivity. Qed.
