(* The client session, as ServerProofs.v has the server: first the facts of C10 about the connect / createStream / publish|play
   workflow, each read off its handler; then the plan interpreter `crun` and the normal form `chandled` of every message handler,
   on which the Session* and Client* files build. *)
From Coq Require Import String ZArith Lia ZifyN ZifyBool ZifyNat.
From RML Require Import Model.Base Model.Time Model.Amf0 Model.Chunk Model.ChunkSer Model.ChunkDe Model.Messages Model.Float
  Model.SessionCommon Model.Client Proofs.ChunkSpecProofs Proofs.TotalProofs Proofs.SessionSend.
Local Open Scope list_scope.
Local Open Scope N_scope.

Lemma cone_packet_spec c m ts sid drop c' r :
  cone_packet c m ts sid drop = (c', r) ->
  cl_state c' = cl_state c /\ cl_stream c' = cl_stream c /\ cl_trs c' = cl_trs c /\ cl_next_tr c' = cl_next_tr c /\
  cl_app c' = cl_app c /\ cl_de c' = cl_de c /\ cl_ack c' = cl_ack c /\
  ((exists b ser', send_message (cl_ser c) m ts sid false drop = Ok (b, ser') /\ r = COk [CPacket b drop] /\ cl_ser c' = ser') \/
   (exists e, r = CErr (CWire e) /\ c' = c) \/ (r = CPanic /\ c' = c)).
Proof.
  unfold cone_packet, csending. destruct (send_message (cl_ser c) m ts sid false drop) as [[b ser']|e|p|]; intros H; inversion H; subst; cbn.
  - repeat (split; [reflexivity|]). left. exists b, ser'. repeat split.
  - repeat (split; [reflexivity|]). right. left. exists e. split; reflexivity.
  - repeat (split; [reflexivity|]). right. right. split; reflexivity.
  - repeat (split; [reflexivity|]). right. right. split; reflexivity.
Qed.

Lemma connect_refused c app clock : cl_state c <> Disconnected -> client_request_connection c app clock = (c, CErr CCantConnect).
Proof. intros H. unfold client_request_connection. destruct (cl_state c); try reflexivity. contradiction. Qed.

Lemma connect_emits c app clock c' r :
  cl_state c = Disconnected -> client_request_connection c app clock = (c', r) ->
  cl_state c' = Disconnected /\ lookup (cl_next_tr c) (cl_trs c') = Some (TConnection app) /\ cl_next_tr c' = cl_next_tr c + 1.
Proof.
  intros Hs H. unfold client_request_connection in H. rewrite Hs in H. unfold new_transaction in H.
  destruct (cone_packet_spec _ _ _ _ _ _ _ H) as [H1 [_ [H3 [H4 _]]]]. cbn in *.
  split; [rewrite H1; exact Hs|]. split; [rewrite H3; apply lookup_insert_same|exact H4].
Qed.

Lemma create_stream_refused c p clock : cl_state c <> Connected -> create_stream_request c p clock = (c, CErr (CInvalidState (cl_state c))).
Proof. intros H. unfold create_stream_request. destruct (cl_state c); try reflexivity. contradiction. Qed.

Lemma publish_media_refused video c data ts drop : cl_state c <> Publishing ->
  client_publish_media video c data ts drop = (c, CErr (CInvalidState (cl_state c))).
Proof. intros H. unfold client_publish_media, publishing_stream. destruct (cl_state c); try reflexivity. contradiction. Qed.

Lemma publish_metadata_refused c md clock : cl_state c <> Publishing ->
  client_publish_metadata c md clock = (c, CErr (CInvalidState (cl_state c))).
Proof. intros H. unfold client_publish_metadata, publishing_stream. destruct (cl_state c); try reflexivity. contradiction. Qed.

Lemma publish_media_on_active_stream video c data ts drop sid :
  cl_state c = Publishing -> cl_stream c = Some sid ->
  client_publish_media video c data ts drop = cone_packet c (if video then MVideoData data else MAudioData data) ts sid drop.
Proof. intros H1 H2. unfold client_publish_media, publishing_stream. rewrite H1, H2. reflexivity. Qed.

Lemma unknown_result c tr obj args clock :
  lookup (f64_to_u32 tr) (cl_trs c) = None -> ch_result c tr obj args clock = (c, COk [CEvent (CUnknownTransaction tr obj args)]).
Proof. intros H. unfold ch_result, take_transaction. rewrite H. reflexivity. Qed.

Lemma unknown_error c tr obj args :
  lookup (f64_to_u32 tr) (cl_trs c) = None -> ch_error c tr obj args = (c, COk [CEvent (CUnknownTransaction tr obj args)]).
Proof. intros H. unfold ch_error, take_transaction. rewrite H. reflexivity. Qed.

Lemma connect_result c tr obj args clock app c' rs :
  lookup (f64_to_u32 tr) (cl_trs c) = Some (TConnection app) -> ch_result c tr obj args clock = (c', COk rs) ->
  cl_state c' = Connected /\ cl_app c' = Some app /\ lookup (f64_to_u32 tr) (cl_trs c') = None /\
  exists b1 b2, rs = [CPacket b1 false; CEvent CConnectionAccepted; CPacket b2 false].
Proof.
  intros Hl H. unfold ch_result, take_transaction in H. rewrite Hl in H. unfold csending in H.
  destruct (send_message _ _ _ _ _ _) as [[b1 ser1]|e|x|]; try discriminate.
  destruct (ChunkSer.set_max_chunk_size _ _ _) as [[b2 ser2]|e|x|]; try discriminate.
  inversion H; subst. cbn. split; [reflexivity|]. split; [reflexivity|]. split; [apply lookup_remove_same|].
  exists b1, b2. reflexivity.
Qed.

Lemma connect_error c tr obj args app :
  lookup (f64_to_u32 tr) (cl_trs c) = Some (TConnection app) ->
  exists c' d, ch_error c tr obj args = (c', COk [CEvent (CConnectionRejected d)]) /\
               cl_state c' = cl_state c /\ lookup (f64_to_u32 tr) (cl_trs c') = None.
Proof.
  intros Hl. unfold ch_error, take_transaction. rewrite Hl. eexists. eexists. split; [reflexivity|]. cbn.
  split; [reflexivity|apply lookup_remove_same].
Qed.

Lemma create_stream_result c tr obj x rest clock p c' rs :
  lookup (f64_to_u32 tr) (cl_trs c) = Some (TCreateStream p) -> ch_result c tr obj (VNumber x :: rest) clock = (c', COk rs) ->
  let sid := f64_to_u32 x in
  cl_stream c' = Some sid /\ lookup (f64_to_u32 tr) (cl_trs c') = None /\
  match p with
  | PurposePlay key =>
      cl_state c' = PlayRequested /\ exists b1 b2 ser1 ser2,
        rs = [CPacket b1 false; CPacket b2 false] /\
        send_message ser1 (MAmf0Command (str "play") 0 VNull [VString key]) clock sid false false = Ok (b2, ser2)
  | PurposePublish key t =>
      cl_state c' = PublishRequested /\ exists b ser1 ser2,
        rs = [CPacket b false] /\
        send_message ser1 (MAmf0Command (str "publish") 0 VNull
                             [VString key; VString (match t with TLive => str "live" | TRecord => str "record" | TAppend => str "append" end)])
                     clock sid false false = Ok (b, ser2)
  end.
Proof.
  intros Hl H sid. unfold ch_result, take_transaction in H. rewrite Hl in H. fold sid in H.
  destruct p as [key|key t].
  - unfold csending in H. cbn [cl_ser cupd_state cupd_stream cupd_trs cupd_ser] in H.
    destruct (send_message (cl_ser c) _ _ _ _ _) as [[b1 ser1]|e|y|] eqn:E1; try discriminate.
    destruct (send_message ser1 _ _ _ _ _) as [[b2 ser2]|e|y|] eqn:E2; try discriminate.
    inversion H; subst. cbn. split; [reflexivity|]. split; [apply lookup_remove_same|]. split; [reflexivity|].
    exists b1, b2, ser1, ser2. split; [reflexivity|exact E2].
  - unfold cone_packet, csending in H. cbn [cl_ser cupd_state cupd_stream cupd_trs cupd_ser] in H.
    destruct (send_message (cl_ser c) _ _ _ _ _) as [[b1 ser1]|e|y|] eqn:E1; try discriminate.
    inversion H; subst. cbn. split; [reflexivity|]. split; [apply lookup_remove_same|]. split; [reflexivity|].
    exists b1, (cl_ser c), ser1. split; [reflexivity|exact E1].
Qed.

Definition status_args (code : bytes) (ps : list (bytes * value)) : Prop := prop_get (str "code") ps = Some (VString code).

Lemma play_start c ps rest :
  status_args (str "NetStream.Play.Start") ps ->
  ch_status c (VObject ps :: rest) =
    match cl_state c with
    | PlayRequested => (cupd_state c Playing, COk [CEvent CPlaybackAccepted])
    | s => (c, CErr (CInvalidState s))
    end.
Proof. intros H. unfold ch_status. unfold status_args in H. rewrite H. reflexivity. Qed.

Lemma publish_start c ps rest :
  status_args (str "NetStream.Publish.Start") ps ->
  ch_status c (VObject ps :: rest) =
    match cl_state c with
    | PublishRequested => (cupd_state c Publishing, COk [CEvent CPublishAccepted])
    | s => (c, CErr (CInvalidState s))
    end.
Proof. intros H. unfold ch_status. unfold status_args in H. rewrite H. reflexivity. Qed.

Lemma media_gate_client video c sid data ts :
  ch_media video c sid data ts =
  match cl_state c with
  | PlayRequested | Playing =>
      (c, COk (match cl_stream c with
               | Some a => if a =? sid then [CEvent (if video then CVideo ts data else CAudio ts data)] else []
               | None => []
               end))
  | s => (c, CErr (CInvalidState s))
  end.
Proof. unfold ch_media. destruct (cl_state c); try reflexivity; destruct (cl_stream c) as [a|]; try reflexivity; destruct (a =? sid); reflexivity. Qed.

Lemma metadata_gate_client c vs sid rs c' :
  ch_data c vs sid = (c', COk rs) -> rs <> [] -> cl_stream c = Some sid /\ c' = c.
Proof.
  unfold ch_data. intros H Hne. destruct vs as [|first rest]; [inversion H; subst; contradiction|].
  destruct (cl_stream c) as [a|]; [|inversion H; subst; contradiction].
  destruct (a =? sid) eqn:E; [|inversion H; subst; contradiction].
  apply N.eqb_eq in E. subst a. split; [reflexivity|].
  destruct first; try (inversion H; subst; reflexivity).
  destruct (bytes_eqb s (str "onMetaData")); [|inversion H; reflexivity].
  destruct rest as [|[] ?]; inversion H; reflexivity.
Qed.

Lemma stop_spec c clock sid c' r :
  cl_stream c = Some sid -> stop c clock = (c', r) ->
  cl_state c' = Connected /\ cl_stream c' = None /\
  ((exists b ser', send_message (cl_ser c) (MAmf0Command (str "deleteStream") 0 VNull [VNumber (u32_to_f64 sid)]) clock sid false false = Ok (b, ser') /\
                   r = COk [CPacket b false]) \/ (exists e, r = CErr (CWire e)) \/ r = CPanic).
Proof.
  intros Ha H. unfold stop in H. rewrite Ha in H.
  destruct (cone_packet_spec _ _ _ _ _ _ _ H) as [H1 [H2 [_ [_ [_ [_ [_ Hc]]]]]]].
  cbn [cl_state cl_stream cl_ser cupd_state cupd_stream] in H1, H2, Hc. split; [exact H1|]. split; [exact H2|].
  destruct Hc as [[b [ser' [Hsend [Hr _]]]]|[[e [Hr _]]|[Hr _]]].
  - left. exists b, ser'. split; assumption.
  - right. left. exists e. exact Hr.
  - right. right. exact Hr.
Qed.

Lemma stop_playback_spec c clock sid c' r :
  (cl_state c = Playing \/ cl_state c = PlayRequested) -> cl_stream c = Some sid -> client_stop_playback c clock = (c', r) ->
  cl_state c' = Connected /\ cl_stream c' = None /\
  ((exists b ser', send_message (cl_ser c) (MAmf0Command (str "deleteStream") 0 VNull [VNumber (u32_to_f64 sid)]) clock sid false false = Ok (b, ser') /\
                   r = COk [CPacket b false]) \/ (exists e, r = CErr (CWire e)) \/ r = CPanic).
Proof.
  intros Hs Ha H. apply (stop_spec c clock sid c' r Ha). unfold client_stop_playback in H. destruct Hs as [E|E]; rewrite E in H; exact H.
Qed.

Lemma stop_publishing_spec c clock sid c' r :
  (cl_state c = Publishing \/ cl_state c = PublishRequested) -> cl_stream c = Some sid -> client_stop_publishing c clock = (c', r) ->
  cl_state c' = Connected /\ cl_stream c' = None /\
  ((exists b ser', send_message (cl_ser c) (MAmf0Command (str "deleteStream") 0 VNull [VNumber (u32_to_f64 sid)]) clock sid false false = Ok (b, ser') /\
                   r = COk [CPacket b false]) \/ (exists e, r = CErr (CWire e)) \/ r = CPanic).
Proof.
  intros Hs Ha H. apply (stop_spec c clock sid c' r Ha). unfold client_stop_publishing in H. destruct Hs as [E|E]; rewrite E in H; exact H.
Qed.

Lemma stop_noop c clock :
  cl_state c = Disconnected \/ cl_state c = Connected -> client_stop_playback c clock = (c, COk []) /\ client_stop_publishing c clock = (c, COk []).
Proof. intros [E|E]; unfold client_stop_playback, client_stop_publishing; rewrite E; split; reflexivity. Qed.

Lemma ping_echo_client c p clock ts :
  of_payload (m_tid p) (m_data p) = Ok (MUserControl PingRequest None None (Some ts)) ->
  ch_message c p clock = cone_packet c (MUserControl PingResponse None None (Some ts)) clock 0 false.
Proof. intros H. unfold ch_message. rewrite H. reflexivity. Qed.

(* ServerProofs.run for the client *)
Fixpoint crun (c : client) (plan : list (plan_item cevent)) (acc : list cresult) : ccall :=
  match plan with
  | [] => (c, COk acc)
  | ISend m ts sid f d :: r => csending c m ts sid f d (fun c' b => crun c' r (acc ++ [CPacket b d]))
  | ISize n ts :: r =>
    match ChunkSer.set_max_chunk_size (cl_ser c) n ts with
    | Ok (b, ser') => crun (cupd_ser c ser') r (acc ++ [CPacket b false])
    | Err e => (c, CErr (CWire (WChunkSer e)))
    | Panic _ | OutOfFuel => (c, CPanic)
    end
  | INote e :: r => crun c r (acc ++ [CEvent e])
  end.

Lemma cupd_ser_same c : cupd_ser c (cl_ser c) = c.
Proof. destruct c; reflexivity. Qed.

Lemma crun_frame plan : forall c1 c2 acc, cl_ser c2 = cl_ser c1 ->
  crun c2 plan acc = (cupd_ser c2 (cl_ser (fst (crun c1 plan acc))), snd (crun c1 plan acc)).
Proof.
  induction plan as [|[m ts sid f d|n ts|e] r IH]; intros c1 c2 acc E; cbn [crun].
  - cbn [fst snd]. rewrite <- E, cupd_ser_same. reflexivity.
  - unfold csending. rewrite E. destruct (send_message _ _ _ _ _ _) as [[b ser']|e|x|];
      [apply (IH (cupd_ser c1 ser') (cupd_ser c2 ser')); reflexivity|cbn [fst snd]; rewrite <- E, cupd_ser_same; reflexivity..].
  - rewrite E. destruct (ChunkSer.set_max_chunk_size _ _ _) as [[b ser']|e|x|];
      [apply (IH (cupd_ser c1 ser') (cupd_ser c2 ser')); reflexivity|cbn [fst snd]; rewrite <- E, cupd_ser_same; reflexivity..].
  - apply IH. exact E.
Qed.

Lemma crun_ser plan c acc : exists ser', fst (crun c plan acc) = cupd_ser c ser'.
Proof. eexists. exact (f_equal fst (crun_frame plan c c acc eq_refl)). Qed.

Definition cevents_only (rs : list cresult) : bool :=
  forallb (fun r => match r with CPacket _ _ => false | _ => true end) rs.

(* ServerProofs.handled for the client.  P says on which streams the calls send: where the server answers on the stream of the
   message it was given, the client sends on the stream whose number the createStream result carried, of which a handler knows
   no more than that it is a u32. *)
Inductive chandled (M : client -> client -> Prop) (P : N -> Prop) (clock : N) : ccall -> ccall -> Prop :=
| chd_err c1 c2 e : M c1 c2 -> chandled M P clock (c1, CErr e) (c2, CErr e)
| chd_run c1 c2 plan acc : M c1 c2 -> cevents_only acc = true -> Forall (sends_at clock P) plan ->
    chandled M P clock (crun c1 plan acc) (crun c2 plan acc).

Section Handled.
  Variables (M : client -> client -> Prop) (P : N -> Prop) (clock : N).

  Lemma chandled_ret c1 c2 rs : M c1 c2 -> cevents_only rs = true -> chandled M P clock (c1, COk rs) (c2, COk rs).
  Proof. intros H1 H2. apply (chd_run M P clock c1 c2 [] rs H1 H2). constructor. Qed.

  Lemma chandled_one c1 c2 m i d : M c1 c2 -> sendable m = true -> P i ->
    chandled M P clock (cone_packet c1 m clock i d) (cone_packet c2 m clock i d).
  Proof.
    intros H1 H2 H3. apply (chd_run M P clock c1 c2 [ISend m clock i false d] [] H1 eq_refl).
    constructor; [|constructor]. repeat split; assumption.
  Qed.

  Lemma chandled_mono (M' : client -> client -> Prop) c c' :
    (forall c1 c2, M c1 c2 -> M' c1 c2) -> chandled M P clock c c' -> chandled M' P clock c c'.
  Proof. intros HM [c1 c2 e H1|c1 c2 plan acc H1 H2 H3]; [apply chd_err|apply chd_run]; auto. Qed.

  Lemma chandled_lift (Q : client -> Prop) c c' :
    (forall c1 x, Q c1 -> Q (cupd_ser c1 x)) -> chandled M P clock c c' -> (forall c1 c2, M c1 c2 -> Q c1) -> Q (fst c).
  Proof.
    intros HQ [c1 c2 e H1|c1 c2 plan acc H1 _ _] HM; [exact (HM c1 c2 H1)|].
    destruct (crun_ser plan c1 acc) as [ser' ->]. apply HQ, (HM c1 c2 H1).
  Qed.
End Handled.

Definition cput_io (c : client) (ser : sstate) (de : dstate) (a : ack_state) : client := cupd_ack (cupd_de (cupd_ser c ser) de) a.

(* ServerProofs.fields for the client *)
Ltac cfields := cbn [cput_io cupd_ser cupd_de cupd_ack cl_ser cl_de cl_ack cl_cfg cl_next_tr cl_trs cl_state cl_app cl_stream].

(* how a call moves the workflow fields (state, transactions, application name, active stream), in c and in c' alike *)
Inductive cl_moved (c c' : client) : client -> client -> Prop :=
| cv_none : cl_moved c c' c c'
| cv_state c0 c0' st : cl_moved c c' c0 c0' -> cl_moved c c' (cupd_state c0 st) (cupd_state c0' st)
| cv_trs c0 c0' t n : cl_moved c c' c0 c0' -> cl_moved c c' (cupd_trs c0 t n) (cupd_trs c0' t n)
| cv_app c0 c0' a : cl_moved c c' c0 c0' -> cl_moved c c' (cupd_app c0 a) (cupd_app c0' a)
| cv_stream c0 c0' x : cl_moved c c' c0 c0' -> cl_moved c c' (cupd_stream c0 (Some (f64_to_u32 x))) (cupd_stream c0' (Some (f64_to_u32 x)))
| cv_nostream c0 c0' : cl_moved c c' c0 c0' -> cl_moved c c' (cupd_stream c0 None) (cupd_stream c0' None).
Global Hint Constructors cl_moved : moved.

(* any message: also Set Chunk Size and Window Acknowledgement Size *)
Inductive cl_moves (c : client) ser de a : client -> client -> Prop :=
| clm_core c1 c2 : cl_moved c (cput_io c ser de a) c1 c2 -> cl_moves c ser de a c1 c2
| clm_de n d d2 : de_set_max_chunk_size (cl_de c) n = Ok d -> de_set_max_chunk_size de n = Ok d2 ->
    cl_moves c ser de a (cupd_de c d) (cput_io c ser d2 a)
| clm_ack n : cl_moves c ser de a (cupd_ack c (ack_learn (cl_ack c) n)) (cput_io c ser de (ack_learn a n)).

(* 1055 = 1023 + 32 is the biased exponent of 2^32, from which `as u32` saturates; below it the 53-bit significand (f64_man b plus
   the implicit 2^52) is shifted right by 1075 - exponent, 1075 = 1023 + 52, which is at least 21: 2^53 / 2^21 = 2^32 *)
Lemma f64_to_u32_bound b : f64_to_u32 b < 4294967296.
Proof.
  unfold f64_to_u32. destruct (f64_is_nan b); [lia|]. destruct (f64_sign b); [lia|]. destruct (f64_exp b =? 2047); [lia|].
  destruct (1055 <=? f64_exp b) eqn:E; [lia|]. unfold f64_trunc_mag.
  destruct (f64_exp b <? 1023); [lia|]. replace (f64_exp b <=? 1075) with true by lia.
  assert (Hm : f64_man b + 4503599627370496 < 9007199254740992).
  { unfold f64_man. pose proof (N.mod_upper_bound b 4503599627370496 ltac:(lia)). lia. }
  assert (Hp : 2 ^ 21 <= 2 ^ (1075 - f64_exp b)) by (apply N.pow_le_mono_r; lia). change (2 ^ 21) with 2097152 in Hp.
  apply N.div_lt_upper_bound; [lia|]. nia.
Qed.

(* the leaves that send nothing *)
Ltac cleaf := first [apply chd_err|apply chandled_ret; [|reflexivity]]; auto with moved.

(* the handlers decide on the workflow fields alone *)
Section Handlers.
  Variables (c : client) (clock : N) (ser : sstate) (de : dstate) (a : ack_state).
  Let c2 := cput_io c ser de a.
  Let alike := chandled (cl_moved c c2) (fun i => i < 4294967296) clock.

  Lemma ch_media_handled v sid d ts : alike (ch_media v c sid d ts) (ch_media v c2 sid d ts).
  Proof. unfold alike, c2, ch_media. cfields. walk; cleaf. Qed.
  Lemma ch_data_handled vs sid : alike (ch_data c vs sid) (ch_data c2 vs sid).
  Proof. unfold alike, c2, ch_data. cfields. walk; cleaf. Qed.
  Lemma ch_error_handled tr obj args : alike (ch_error c tr obj args) (ch_error c2 tr obj args).
  Proof. unfold alike, c2, ch_error, take_transaction. cfields. walk; cleaf. Qed.
  Lemma ch_status_handled args : alike (ch_status c args) (ch_status c2 args).
  Proof. unfold alike, c2, ch_status. cfields. walk; cleaf. Qed.

  Lemma ch_result_handled tr obj args : alike (ch_result c tr obj args clock) (ch_result c2 tr obj args clock).
  Proof.
    unfold alike, c2, ch_result, take_transaction. cbv zeta. cfields.
    (* the fields of the other session are read; left in place, its serializer would let Qed compute far into send_message *)
    generalize (cput_io c ser de a). intros c'. walk; try cleaf.
    - refine (chd_run _ _ _ _ _ [ISend _ clock 0 false false; INote _; ISize _ 0] [] _ eq_refl _); [auto with moved|].
      repeat constructor.
    - refine (chd_run _ _ _ _ _ [ISend _ clock 0 false false; ISend _ clock (f64_to_u32 bits) false false] [] _ eq_refl _); [auto with moved|].
      repeat constructor. apply f64_to_u32_bound.
    - apply chandled_one; [auto with moved|reflexivity|apply f64_to_u32_bound].
  Qed.

  Lemma ch_command_handled name tr obj args : alike (ch_command c name tr obj args clock) (ch_command c2 name tr obj args clock).
  Proof.
    unfold alike, ch_command. walk.
    - apply ch_result_handled.
    - apply ch_error_handled.
    - apply ch_status_handled.
    - cleaf.
  Qed.
End Handlers.

Theorem ch_message_handled c p clock ser de a :
  chandled (cl_moves c ser de a) (fun i => i < 4294967296) clock (ch_message c p clock) (ch_message (cput_io c ser de a) p clock).
Proof.
  pose proof (clm_core c ser de a) as Hc. pose proof (Hc _ _ (cv_none c _)) as H0.
  unfold ch_message. pose proof (of_payload_total (m_tid p) (m_data p)) as Ht.
  destruct (of_payload (m_tid p) (m_data p)) as [m|e|x|]; try contradiction; [|apply chd_err, H0].
  destruct m as [t d|n|n|name tr obj args|vs|d|n|n lt|ev sid bl ts|d|n]; try (apply chandled_ret; [exact H0|reflexivity]).
  - apply (chandled_mono _ _ _ _ _ _ Hc), ch_command_handled.
  - apply (chandled_mono _ _ _ _ _ _ Hc), ch_data_handled.
  - apply (chandled_mono _ _ _ _ _ _ Hc), ch_media_handled.
  - cfields. destruct (de_set_max_alike (cl_de c) de n) as [[e [-> ->]]|[d1 [d2 [E1 E2]]]]; [apply chd_err, H0|].
    rewrite E1, E2. apply chandled_ret; [exact (clm_de _ _ _ _ n d1 d2 E1 E2)|reflexivity].
  - destruct ev; try (apply chandled_ret; [exact H0|reflexivity]).
    apply chandled_one; [exact H0|reflexivity|reflexivity].
  - apply (chandled_mono _ _ _ _ _ _ Hc), ch_media_handled.
  - apply chandled_ret; [apply clm_ack|reflexivity].
Qed.

Definition ch_message_handled1 c p clock := ch_message_handled c p clock (cl_ser c) (cl_de c) (cl_ack c).
