(* C02, transport layer: from any linked pair (sender's serializer, receiver's deserializer), whatever operations the sender's
   serializer performs - messages of any kind, chunk-size changes - and however the produced bytes are cut into input calls, the
   receiver's deserializer (driving loop honouring Set Chunk Size) returns exactly the messages sent, in order, without error,
   and the pair is linked again.  With SessionTrace / ClientTrace this holds for everything either session sends. *)
From RML Require Import Model.Base Model.ChunkSer Model.ChunkDe Spec.ChunkSpec
  Proofs.ChunkSerProofs Proofs.ChunkDeProofs Proofs.ChunkDeFuel Proofs.ChunkRefineProofs Proofs.InteropProofs.
Local Open Scope N_scope.

(* T1 at record level, from any simulated pair, keeping the simulation at the end *)
Lemma run_sim_all ops : forall sst dst packets sst',
  Sim sst dst -> Forall op_wf ops -> ser_run sst ops = Ok (packets, sst') ->
  exists cs dst', concat packets = concat (map emit_chunk cs) /\ sdec_run dst cs = Some (dst', map op_msg ops) /\ Sim sst' dst'.
Proof.
  induction ops as [|op r IH]; intros sst dst packets sst' HSim Hwf Hrun.
  - cbn [ser_run] in Hrun. inversion Hrun; subst. exists [], dst. split; [reflexivity|]. split; [reflexivity|exact HSim].
  - cbn [ser_run] in Hrun. destruct (ser_step sst op) as [[b sst1]|e| |] eqn:Estep; cbn [obind] in Hrun; try discriminate.
    destruct (ser_run sst1 r) as [[bs sst2]|e| |] eqn:Erun; cbn [obind] in Hrun; try discriminate.
    inversion Hrun; subst packets sst'. clear Hrun. inversion Hwf as [|? ? Hop Hr]; subst.
    destruct (step_sim sst dst op b sst1 HSim Hop Estep) as [cs [dst1 [dst2 [Hb [Hdo [Hac [HS2 _]]]]]]].
    destruct (IH sst1 dst2 bs sst2 HS2 Hr Erun) as [cs' [dst' [Hc [Hs HS3]]]].
    exists (cs ++ cs'), dst'. split; [cbn [concat]; rewrite Hb, Hc, map_app, concat_app; reflexivity|].
    split; [cbn [map]; apply (sdec_run_one cs dst dst1 (op_msg op) dst2 cs' dst' _ Hdo Hac Hs)|exact HS3].
Qed.

Lemma feed_all_complete pieces : forall s acc s' ms, feeds s pieces acc s' ms None -> feed_all s pieces acc = (s', ms, None).
Proof.
  intros s acc s' ms F.
  pose proof (feed_all_fuel_adequate pieces s acc) as Hf.
  destruct (feed_all s pieces acc) as [[s1 ms1] r1] eqn:E. cbn [snd] in Hf.
  pose proof (feed_all_sound pieces s acc s1 ms1 r1 E Hf) as F1.
  assert (Hfun : forall p s0 a sa ma ra, feeds s0 p a sa ma ra -> forall sb mb rb, feeds s0 p a sb mb rb -> sa = sb /\ ma = mb /\ ra = rb).
  { induction 1 as [s0 a|s0 p r a s1' m1 s2 m2 res D1 F2 IH|s0 p r a s1' m1 e D1]; intros sb mb rb G; inversion G; subst.
    - repeat split.
    - match goal with D2 : drains (ext s0 p) a _ _ None |- _ => destruct (drains_fun _ _ _ _ _ D1 _ _ _ D2) as [-> [-> _]] end. apply IH. assumption.
    - match goal with D2 : drains (ext s0 p) a _ _ (Some _) |- _ => destruct (drains_fun _ _ _ _ _ D1 _ _ _ D2) as [_ [_ X]]; discriminate X end.
    - match goal with D2 : drains (ext s0 p) a _ _ None |- _ => destruct (drains_fun _ _ _ _ _ D1 _ _ _ D2) as [_ [_ X]]; discriminate X end.
    - match goal with D2 : drains (ext s0 p) a _ _ (Some _) |- _ => destruct (drains_fun _ _ _ _ _ D1 _ _ _ D2) as [-> [-> ->]] end. repeat split. }
  destruct (Hfun _ _ _ _ _ _ F1 _ _ _ F) as [-> [-> ->]]. reflexivity.
Qed.

Theorem link_run ser de ops packets ser' pieces :
  Link ser de -> Forall op_wf ops -> ser_run ser ops = Ok (packets, ser') -> concat pieces = concat packets ->
  exists de', feed_all de pieces [] = (de', map op_msg ops, None) /\ Link ser' de'.
Proof.
  intros [sd [HSim [HRel Hbuf]]] Hwf Hrun Hcat.
  destruct (run_sim_all ops ser sd packets ser' HSim Hwf Hrun) as [cs [sd' [Hb [Hs HS']]]].
  destruct de as [max f cur stg buf prev part]. cbn [d_buf] in Hbuf. subst buf.
  assert (Hstg : stg = StCsid) by (destruct HRel as [H _]; exact H). subst stg.
  fold (mk max f cur StCsid [] prev part) in *.
  assert (HRel' : Rel sd (mk max f cur StCsid (concat (map emit_chunk cs)) prev part)).
  { destruct HRel as [R1 [R2 [R3 R4]]]. split; [reflexivity|split; [exact R2|split; [exact R3|exact R4]]]. }
  destruct (idec_run cs sd sd' (map op_msg ops) max f cur prev part [] HRel' Hs) as [dst' [D [HR3 Hb3]]]. cbn [app] in D.
  (* the whole stream in one call ... *)
  assert (Hq : get_next_message (mk max f cur StCsid [] prev part) [] = (mk max f cur StCsid [] prev part, DNone)).
  { rewrite gnm_nil. apply blocked_empty. }
  assert (Fwhole : feeds (mk max f cur StCsid [] prev part) [concat (map emit_chunk cs)] [] dst' (map op_msg ops) None).
  { eapply fd_ok; [exact D|apply fd_nil]. }
  (* ... and any other partition *)
  pose proof (feed_all_fuel_adequate pieces (mk max f cur StCsid [] prev part) []) as Hf.
  destruct (feed_all (mk max f cur StCsid [] prev part) pieces []) as [[s1 ms1] r1] eqn:E. cbn [snd] in Hf.
  pose proof (feed_all_sound pieces _ [] s1 ms1 r1 E Hf) as F1.
  assert (Hc2 : concat pieces = concat [concat (map emit_chunk cs)]) by (cbn [concat]; rewrite app_nil_r, Hcat; exact Hb).
  destruct (partition_independent _ pieces [concat (map emit_chunk cs)] [] s1 ms1 r1 dst' (map op_msg ops) None Hq Hc2 F1 Fwhole) as [-> ->].
  (* the final states agree as well: both are the state reached on the whole stream *)
  pose proof (feeds_whole pieces _ [] s1 (map op_msg ops) Hq F1) as W1. rewrite Hc2 in W1. cbn [concat] in W1. rewrite app_nil_r in W1.
  destruct (drains_fun _ _ _ _ _ W1 _ _ _ D) as [-> _].
  exists dst'. split; [reflexivity|]. exists sd'. split; [exact HS'|split; [exact HR3|exact Hb3]].
Qed.
