(* Published test vectors for the Gallina SHA-256 and HMAC-SHA256 of Model/Sha256.v (FIPS 180-4 examples, RFC 4231 cases 1 and 2).
   Proved by vm_compute; in a file of their own because coqchk, which has no VM, needs very long to re-check them. *)
From Coq Require Import String ZArith.
From RML Require Import Model.Base Model.SessionCommon Model.Sha256.
Local Open Scope list_scope.
Local Open Scope N_scope.

Example sha256_abc :
  sha256 [97; 98; 99] = [186; 120; 22; 191; 143; 1; 207; 234; 65; 65; 64; 222; 93; 174; 34; 35; 176; 3; 97; 163; 150; 23; 122; 156; 180; 16; 255; 97; 242; 0; 21; 173].
Proof. vm_compute. reflexivity. Qed.

Example sha256_empty :
  sha256 [] = [227; 176; 196; 66; 152; 252; 28; 20; 154; 251; 244; 200; 153; 111; 185; 36; 39; 174; 65; 228; 100; 155; 147; 76; 164; 149; 153; 27; 120; 82; 184; 85].
Proof. vm_compute. reflexivity. Qed.

(* NIST two-block message "abcdbcdecdefdefgefghfghighijhijkijkljklmklmnlmnomnopnopq" *)
Example sha256_two_blocks :
  sha256 (str "abcdbcdecdefdefgefghfghighijhijkijkljklmklmnlmnomnopnopq") =
  [36; 141; 106; 97; 210; 6; 56; 184; 229; 192; 38; 147; 12; 62; 96; 57; 163; 60; 228; 89; 100; 255; 33; 103; 246; 236; 237; 212; 25; 219; 6; 193].
Proof. vm_compute. reflexivity. Qed.

(* RFC 4231 test cases 1 and 2 *)
Example hmac_rfc4231_1 :
  hmac_sha256 (repeat 11 20) (str "Hi There") =
  [176; 52; 76; 97; 216; 219; 56; 83; 92; 168; 175; 206; 175; 11; 241; 43; 136; 29; 194; 0; 201; 131; 61; 167; 38; 233; 55; 108; 46; 50; 207; 247].
Proof. vm_compute. reflexivity. Qed.

Example hmac_rfc4231_2 :
  hmac_sha256 (str "Jefe") (str "what do ya want for nothing?") =
  [91; 220; 193; 70; 191; 96; 117; 78; 106; 4; 36; 38; 8; 149; 117; 199; 90; 0; 63; 8; 157; 39; 57; 131; 157; 236; 88; 185; 100; 236; 56; 67].
Proof. vm_compute. reflexivity. Qed.
