(* C02, play direction: a metadata item the server sends is raised by the playing client as exactly that metadata.
   The server's property mapping (its own insertion order) is the identity through the client's reader; AMF0 round trip (C04);
   the general receive step of ProtocolFlow. *)
From Coq Require Import String.
From RML Require Import Model.Base Model.Amf0 Model.Messages Model.SessionCommon
  Model.Server Model.Client Spec.Amf0Wire Proofs.MessageProofs Proofs.InteropProofs Proofs.MetadataProofs
  Proofs.ServerProofs Proofs.ProtocolFlow.
Local Open Scope N_scope.

Theorem metadata_roundtrip_server m : md_ok m -> metadata_of_props (metadata_props_server m) = m.
Proof.
  intros Hm. rewrite <- (metadata_of_props_perm _ _ (md_props_perm m) (md_props_nodup m)). exact (metadata_roundtrip_client m Hm).
Qed.

Theorem play_metadata_delivered s c sid md clock cclock s1 r1 :
  Link (sv_ser s) (cl_de c) -> ser_ok (cl_ser c) -> playing_on c sid -> sid < 4294967296 -> clock < 4294967296 ->
  md_ok md -> enc_ok md ->
  server_send_metadata s sid md clock = (s1, ROk r1) ->
  exists b c2 r2, r1 = [SPacket b false] /\ same_core s s1 /\ sv_de s1 = sv_de s /\
    client_handle_input c b cclock = (c2, COk r2) /\
    cevents r2 = [CMetadata md] /\ playing_on c2 sid /\ cl_state c2 = cl_state c /\
    Link (sv_ser s1) (cl_de c2) /\ ser_ok (cl_ser c2) /\
    (quiet (cl_ack c) b -> r2 = [CEvent (CMetadata md)] /\ cl_ser c2 = cl_ser c).
Proof.
  intros HL Hcs [Hst Hstr] Hsid Hclk Hm He Hsend.
  unfold server_send_metadata, one_packet, sending in Hsend.
  set (M := MAmf0Data [VString (str "onMetaData"); VObject (metadata_props_server md)]) in *.
  destruct (send_message (sv_ser s) M clock sid false false) as [[b ser']|e|x|] eqn:Es; try discriminate Hsend.
  injection Hsend as <- <-.
  assert (Hok : msg_ok M) by (cbn [msg_ok M wf_values]; split; [reflexivity|split; [exact (md_props_server_wf md Hm He)|exact I]]).
  destruct (client_delivers_silent (clock := cclock) (t := c) (out := [CEvent (CMetadata md)]) (Sent HL Hcs Hclk Hsid Es) I eq_refl Hok)
    as [c2 [r2 [Hin [Hev [[_ [_ [_ [E4 [_ E6]]]]] [HL2 [Hs2 [_ Hq]]]]]]]].
  { intros p ser0 a0 de1 Hof Hpsid _. unfold ch_message. rewrite Hof. unfold M. cbv iota. unfold ch_data. cbn [cl_stream cupd_de cupd_ack cupd_ser].
    rewrite Hstr, Hpsid, N.eqb_refl, bytes_eqb_refl, (metadata_roundtrip_server md Hm). reflexivity. }
  exists b, c2, r2. split; [reflexivity|]. split; [repeat split|]. split; [reflexivity|]. split; [exact Hin|]. split; [exact Hev|].
  split; [split; [rewrite E4; exact Hst|rewrite E6; exact Hstr]|]. split; [exact E4|]. split; [exact HL2|]. split; [exact Hs2|exact Hq].
Qed.
