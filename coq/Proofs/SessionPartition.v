(* C15 for the server session: the events (and the verdict) of a history of handle_input calls do not depend on how the
   peer's byte stream is split into calls.  Handlers commute with bytes waiting in the deserializer's buffer (h_message_sext),
   which is what MessageLoop asks of a handler; the acknowledgement prelude of handle_input only changes the serializer and the
   acknowledgement counter, which no handler's events depend on (h_message_similar).  Both are read off ServerProofs.handled. *)
From Coq Require Import ZArith Lia ZifyN ZifyBool ZifyNat.
From RML Require Import Model.Base Model.Time Model.Chunk Model.ChunkSer Model.ChunkDe Model.Amf0 Model.Messages Model.SessionCommon
  Model.Server Model.Client Gen.Consts Proofs.BaseProofs Proofs.ChunkDeProofs Proofs.ChunkDeFuel Proofs.MessageLoop Proofs.TotalProofs Proofs.ConfigProofs
  Proofs.InteropProofs Proofs.ServerProofs Proofs.SessionFrame.
Local Open Scope N_scope.

Definition sext (s : server) (x : bytes) : server := upd_de s (ext (sv_de s) x).

Inductive verdict := VOk | VErr (e : serr) | VPanic.

Definition verdict_of (r : reply) : verdict := match r with ROk _ => VOk | RErr e => VErr e | RPanic => VPanic end.
Definition reply_of (seen : list sresult) (v : verdict) : reply :=
  match v with VOk => ROk seen | VErr e => RErr e | VPanic => RPanic end.
Definition results_of (r : reply) : list sresult := match r with ROk rs => rs | _ => [] end.

Lemma send_message_similar ser1 ser2 m ts sid f d : ser_ok ser1 -> ser_ok ser2 ->
  match send_message ser1 m ts sid f d, send_message ser2 m ts sid f d with
  | Ok (_, a), Ok (_, b) => ser_ok a /\ ser_ok b
  | Err e1, Err e2 => e1 = e2
  | _, _ => False
  end.
Proof.
  intros H1 H2. pose proof (send_message_verdict m ts sid f d) as H. destruct (fits m).
  - destruct (H ser1 H1) as [b1 [s1 [-> K1]]]. destruct (H ser2 H2) as [b2 [s2 [-> K2]]]. split; assumption.
  - destruct H as [e H]. rewrite (H ser1 H1), (H ser2 H2). reflexivity.
Qed.

(* ServerProofs.put_io spelled out, and convertible with it *)
Definition with_io (s : server) (ser : sstate) (de : dstate) (a : ack_state) : server :=
  {| sv_ser := ser; sv_de := de; sv_app := sv_app s; sv_reqs := sv_reqs s; sv_next_req := sv_next_req s; sv_connected := sv_connected s;
     sv_fms := sv_fms s; sv_objenc := sv_objenc s; sv_streams := sv_streams s; sv_next_stream := sv_next_stream s; sv_ack := a |}.

Lemma same_core_with_io s s' : same_core s s' -> s' = with_io s (sv_ser s') (sv_de s') (sv_ack s').
Proof. intros [H1 [H2 [H3 [H4 [H5 [H6 [H7 H8]]]]]]]. destruct s, s'. cbn in *. subst. reflexivity. Qed.

(* c1 is the call c2 made with x waiting behind the bytes the deserializer holds: the same reply, and the same state but for x *)
Definition commutes (x : bytes) (c1 c2 : call) : Prop := c1 = (sext (fst c2) x, snd c2).

Lemma handled_commutes M sid clock x c c' : handled M sid clock c c' -> (forall s1 s2, M s1 s2 -> s2 = sext s1 x) -> commutes x c' c.
Proof.
  intros [s1 s2 e Hm|s1 s2 plan acc Hm _ _] HM; rewrite (HM _ _ Hm); unfold commutes; [reflexivity|].
  rewrite (run_frame plan s1 (sext s1 x) acc eq_refl). destruct (run_ser plan s1 acc) as [ser' ->]. reflexivity.
Qed.

Lemma de_set_max_ext d n x :
  de_set_max_chunk_size (ext d x) n = match de_set_max_chunk_size d n with Ok d' => Ok (ext d' x) | Err e => Err e | Panic y => Panic y | OutOfFuel => OutOfFuel end.
Proof. unfold de_set_max_chunk_size. destruct (_ || _); reflexivity. Qed.

Theorem h_message_sext x s p clock : commutes x (h_message (sext s x) p clock) (h_message s p clock).
Proof.
  apply (handled_commutes _ _ _ _ _ _ (h_message_handled s p clock (sv_ser s) (ext (sv_de s) x) (sv_ack s))).
  intros s1 s2 [? ? [Hc ->]|n d d2 E1 E2|n].
  - destruct (cmoves_io _ _ _ Hc) as [<- [<- <-]]. destruct s0; reflexivity.
  - rewrite de_set_max_ext, E1 in E2. injection E2 as <-. reflexivity.
  - reflexivity.
Qed.

(* the loop of MessageLoop with h_message as the handler *)
Definition sh (clock : N) (s : server) (p : msg) : server * (list sresult + verdict) :=
  let (s1, r) := h_message s p clock in (s1, match r with ROk rs => inl rs | _ => inr (verdict_of r) end).
Definition swire (e : de_err) : verdict := VErr (SWire (WChunkDe e)).
Definition sstep (clock : N) : server -> server * advance sresult verdict := mstep sv_de upd_de swire VPanic (sh clock).
Definition sloop (clock : N) := loop VOk (sstep clock).

Lemma upd_de_de s : upd_de s (sv_de s) = s.
Proof. destruct s; reflexivity. Qed.

Lemma sh_sext clock s x p : sh clock (sext s x) p = (sext (fst (sh clock s p)) x, snd (sh clock s p)).
Proof.
  unfold sh. pose proof (h_message_sext x s p clock) as H. unfold commutes in H. rewrite H.
  destruct (h_message s p clock) as [s1 [rs|e|]]; reflexivity.
Qed.

Lemma sh_bad clock s p : snd (sh clock s p) <> inr VOk.
Proof. unfold sh. destruct (h_message s p clock) as [s1 [rs|e|]]; discriminate. Qed.

Lemma sh_fst clock s p : fst (sh clock s p) = fst (h_message s p clock).
Proof. unfold sh. destruct (h_message s p clock); reflexivity. Qed.

Lemma h_loop_S clock f s input acc : h_loop (S f) s input clock acc =
  match mstep_on upd_de swire VPanic (sh clock) s (get_next_message (sv_de s) input) with
  | (s1, More rs) => h_loop f s1 [] clock (acc ++ rs)
  | (s1, Done) => (s1, reply_of acc VOk)
  | (s1, Stop v) => (s1, reply_of acc v)
  end.
Proof.
  cbn [h_loop]. destruct (get_next_message (sv_de s) input) as [d [p| |e|]]; try reflexivity.
  cbn [mstep_on]. unfold sh. destruct (h_message (upd_de s d) p clock) as [s1 [rs|e|]]; reflexivity.
Qed.

Lemma h_loop_sound clock fuel s input acc : (nu (ext (sv_de s) input) < fuel)%nat ->
  exists s' seen v, h_loop fuel s input clock acc = (s', reply_of seen v) /\ sloop clock (sext s input) acc s' seen v.
Proof.
  apply (run_sound _ _ _ VOk sv_de upd_de (fun _ _ => eq_refl) upd_de_de (fun _ _ _ => eq_refl) swire VPanic (sh clock) _ reply_of
           (fun f s i a => h_loop f s i clock a) (h_loop_S clock)).
  intros s0 p. rewrite sh_fst. apply h_message_nu.
Qed.

(* two calls agree in what the application sees and the protocol goes on from: the same protocol fields, verdict and events;
   both leave a usable serializer *)
Definition similar (c1 c2 : call) : Prop :=
  same_core (fst c1) (fst c2) /\ verdict_of (snd c1) = verdict_of (snd c2) /\ events (results_of (snd c1)) = events (results_of (snd c2)) /\
  (ser_ok (sv_ser (fst c1)) /\ ser_ok (sv_ser (fst c2))).

Lemma events_app a b : events (a ++ b) = events a ++ events b.
Proof. unfold events. apply flat_map_app. Qed.

Lemma set_max_similar ser1 ser2 n ts (P : outcome (bytes * sstate) ser_err -> outcome (bytes * sstate) ser_err -> Prop) :
  ser_ok ser1 -> ser_ok ser2 ->
  (forall b1 s1 b2 s2, ser_ok s1 -> ser_ok s2 -> P (Ok (b1, s1)) (Ok (b2, s2))) -> (forall e, P (Err e) (Err e)) ->
  P (ChunkSer.set_max_chunk_size ser1 n ts) (ChunkSer.set_max_chunk_size ser2 n ts).
Proof.
  intros H1 H2 Hok Herr. destruct (ser_chunk_size_refused ser1 n ts H1) as [B1 O1]. destruct (ser_chunk_size_refused ser2 n ts H2) as [B2 O2].
  destruct ((n =? 0) || (2147483647 <? n)) eqn:E.
  - rewrite B1, B2 by lia. apply Herr.
  - destruct (O1 ltac:(lia)) as [b1 [s1 [-> M1]]]. destruct (O2 ltac:(lia)) as [b2 [s2 [-> M2]]]. apply Hok; unfold ser_ok; lia.
Qed.

Lemma run_similar plan : forall s1 s2 acc1 acc2, same_core s1 s2 -> ser_ok (sv_ser s1) -> ser_ok (sv_ser s2) ->
  events acc1 = events acc2 -> similar (run s1 plan acc1) (run s2 plan acc2).
Proof.
  induction plan as [|[m ts sid f d|n ts|e] r IH]; intros s1 s2 acc1 acc2 Hc H1 H2 He; cbn [run].
  - exact (conj Hc (conj eq_refl (conj He (conj H1 H2)))).
  - unfold sending. pose proof (send_message_similar (sv_ser s1) (sv_ser s2) m ts sid f d H1 H2) as H.
    destruct (send_message (sv_ser s1) m ts sid f d) as [[b1 x1]|e1|y|], (send_message (sv_ser s2) m ts sid f d) as [[b2 x2]|e2|y2|];
      try contradiction.
    + apply IH; [exact Hc|apply H..|rewrite !events_app, He; reflexivity].
    + subst. exact (conj Hc (conj eq_refl (conj eq_refl (conj H1 H2)))).
  - pattern (ChunkSer.set_max_chunk_size (sv_ser s1) n ts), (ChunkSer.set_max_chunk_size (sv_ser s2) n ts).
    apply set_max_similar; [exact H1|exact H2| |intros e; exact (conj Hc (conj eq_refl (conj eq_refl (conj H1 H2))))].
    intros b1 x1 b2 x2 K1 K2. apply IH; [exact Hc|exact K1|exact K2|rewrite !events_app, He; reflexivity].
  - apply IH; [exact Hc|exact H1|exact H2|rewrite !events_app, He; reflexivity].
Qed.

Lemma handled_similar M sid clock c c' : handled M sid clock c c' ->
  (forall s1 s2, M s1 s2 -> same_core s1 s2 /\ ser_ok (sv_ser s1) /\ ser_ok (sv_ser s2)) -> similar c c'.
Proof.
  intros [s1 s2 e Hm|s1 s2 plan acc Hm _ _] HM; destruct (HM _ _ Hm) as [Hc [H1 H2]]; [exact (conj Hc (conj eq_refl (conj eq_refl (conj H1 H2))))|].
  apply run_similar; [exact Hc|exact H1|exact H2|reflexivity].
Qed.

(* what a message does to the deserializer is a function of the message alone *)
Definition de_after (p : msg) (d : dstate) : dstate :=
  match of_payload (m_tid p) (m_data p) with
  | Ok (MSetChunkSize n) => match de_set_max_chunk_size d n with Ok d' => d' | _ => d end
  | _ => d
  end.

Lemma h_message_de_after s p clock : sv_de (fst (h_message s p clock)) = de_after p (sv_de s).
Proof.
  unfold h_message, de_after. destruct (of_payload (m_tid p) (m_data p)) as [m|e|x|]; try reflexivity.
  destruct m as [t d|n|n|name tr obj args|vs|d|n|n lt|ev sid bl ts|d|n]; try reflexivity.
  - apply h_command_de.
  - apply h_data_de.
  - apply h_media_de.
  - destruct (de_set_max_chunk_size (sv_de s) n); reflexivity.
  - destruct ev; try reflexivity. apply one_packet_de.
  - apply h_media_de.
Qed.

Theorem h_message_similar s ser2 de2 a2 p clock : ser_ok (sv_ser s) -> ser_ok ser2 ->
  similar (h_message s p clock) (h_message (with_io s ser2 de2 a2) p clock).
Proof.
  intros H1 H2. apply (handled_similar _ _ _ _ _ (h_message_handled s p clock ser2 de2 a2)).
  intros s1 s2 Hm. rewrite (moves_ser _ _ _ _ _ _ _ Hm).
  destruct Hm as [? ? [Hc ->]|n d d2 _ _|n]; (split; [repeat split|split; assumption]).
Qed.

(* sessions that differ only in serializer and acknowledgement counter, both serializers usable *)
Definition srel (a b : server) : Prop := same_core a b /\ sv_de b = sv_de a /\ ser_ok (sv_ser a) /\ ser_ok (sv_ser b).

Lemma sstep_similar clock : like_steps (sstep clock) events srel.
Proof.
  intros a b [Hc [Hd [Ha Hb]]]. unfold sstep, mstep. rewrite Hd. destruct (G (sv_de a)) as [d res].
  assert (Hu : srel (upd_de a d) (upd_de b d)) by (split; [exact Hc|split; [reflexivity|split; assumption]]).
  destruct res as [p| |e|]; cbn [mstep_on]; try exact Hu; try (split; [exact Hu|reflexivity]).
  assert (Eb : upd_de b d = with_io (upd_de a d) (sv_ser b) d (sv_ack b)) by (rewrite (same_core_with_io _ _ Hc); reflexivity).
  pose proof (h_message_similar (upd_de a d) (sv_ser b) d (sv_ack b) p clock Ha Hb) as Hs. rewrite <- Eb in Hs.
  pose proof (h_message_de_after (upd_de a d) p clock) as D1. pose proof (h_message_de_after (upd_de b d) p clock) as D2.
  unfold sh. destruct (h_message (upd_de a d) p clock) as [a1 r1], (h_message (upd_de b d) p clock) as [b1 r2].
  destruct Hs as [Hc1 [Hv [Hev [Hs1 Hs2]]]]. cbn [fst snd sv_de upd_de] in *.
  assert (H1 : srel a1 b1) by (split; [exact Hc1|split; [congruence|split; assumption]]).
  destruct r1 as [rs1|e1|], r2 as [rs2|e2|]; try discriminate Hv; split; try exact H1; assumption.
Qed.

(* the executable history: handle_input call after call, stopping at the first call that fails; evs = events delivered *)
Fixpoint feed_server (s : server) (pieces : list bytes) (clock : N) (evs : list sevent) : server * list sevent * verdict :=
  match pieces with
  | [] => (s, evs, VOk)
  | p :: r =>
    match server_handle_input s p clock with
    | (s', ROk rs) => feed_server s' r clock (evs ++ events rs)
    | (s', RErr e) => (s', evs, VErr e)
    | (s', RPanic) => (s', evs, VPanic)
    end
  end.

(* one real call against one reference call (the message loop alone on a session with the same core and deserializer) *)
Lemma handle_input_vs_loop clock s p t acc : srel s t ->
  exists s' seen v t' seen2,
    server_handle_input s p clock = (s', reply_of seen v) /\
    sloop clock (sext t p) acc t' seen2 v /\ srel s' t' /\ events seen2 = events acc ++ events seen.
Proof.
  intros [Hc [Hd [Hs Ht]]]. destruct (server_handle_input_loop s p clock Hs) as [ser0 [acc0 [-> [Hs0 Hacc]]]].
  assert (He0 : events acc0 = []).
  { destruct (snd (ack_step (sv_ack s) (lenN p))); [destruct Hacc as [b [_ ->]]|destruct Hacc as [_ ->]]; reflexivity. }
  set (sm := upd_ack (upd_ser s ser0) _).
  destruct (h_loop_sound clock _ sm p acc0 (nu_ext_fuel _ _)) as [s' [seen [v [E1 D1]]]].
  destruct (loop_similar _ _ _ VOk _ _ events srel events_app (sstep_similar clock) _ _ _ _ _ D1 (sext t p) acc)
    as [t' [seen2 [delta [D2 [R2 [Ev1 Ev2]]]]]].
  { split; [exact Hc|]. split; [cbn [sext sv_de upd_de upd_ack upd_ser]; rewrite Hd; reflexivity|]. split; assumption. }
  exists s', seen, v, t', seen2. rewrite He0 in Ev1. cbn [app] in Ev1. rewrite Ev1.
  exact (conj E1 (conj D2 (conj R2 Ev2))).
Qed.

(* the acknowledgement-free reference history: the message loop alone, call after call; acc accumulates every result *)
Definition pfeeds (clock : N) := calls VOk sext (sstep clock).

Lemma feed_server_vs_pfeeds clock pieces : forall s t evs acc,
  srel s t -> evs = events acc ->
  exists t' seen, pfeeds clock t pieces acc t' seen (snd (feed_server s pieces clock evs)) /\
    exists dropped, events seen = snd (fst (feed_server s pieces clock evs)) ++ dropped /\
                    (snd (feed_server s pieces clock evs) = VOk -> dropped = [] /\ same_core (fst (fst (feed_server s pieces clock evs))) t').
Proof.
  induction pieces as [|p r IH]; intros s t evs acc HR He.
  - exists t, acc. cbn [feed_server fst snd]. split; [apply c_nil|]. exists []. rewrite app_nil_r. split; [symmetry; exact He|]. intros _. split; [reflexivity|apply HR].
  - cbn [feed_server].
    destruct (handle_input_vs_loop clock s p t acc HR) as [s' [seen [v [t' [seen2 [E [D [R2 Ev]]]]]]]].
    rewrite E. destruct v as [|e|]; cbn [reply_of].
    { destruct (IH s' t' (evs ++ events seen) seen2 R2 ltac:(rewrite Ev, He; reflexivity)) as [t'' [seenF [F R]]].
      exists t'', seenF. split; [eapply c_ok; [exact D|exact F]|exact R]. }
    all: exists t', seen2; cbn [fst snd]. all: split; [apply c_bad; [exact D|discriminate]|].
    all: exists (events seen). all: split; [rewrite Ev, He; reflexivity|discriminate].
Qed.

Lemma same_core_join a b t : same_core a t -> same_core b t -> same_core a b.
Proof.
  intros [A1 [A2 [A3 [A4 [A5 [A6 [A7 A8]]]]]]] [B1 [B2 [B3 [B4 [B5 [B6 [B7 B8]]]]]]]. unfold same_core. repeat split; congruence.
Qed.

(* C15 for the server session: any two partitions of the same byte stream, fed call after call to a quiescent session,
   give the same verdict (completed / the same error at the same message); when the stream is accepted they raise exactly the
   same events and end in the same protocol state; when it is rejected, what either partition delivered before the failing call
   is a prefix of one common event sequence (the events of the messages before the failing one) *)
Theorem server_partition_independent s p1 p2 clock :
  ser_ok (sv_ser s) -> G (sv_de s) = (sv_de s, DNone) -> concat p1 = concat p2 ->
  let r1 := feed_server s p1 clock [] in
  let r2 := feed_server s p2 clock [] in
  snd r1 = snd r2 /\
  (exists common d1 d2, common = snd (fst r1) ++ d1 /\ common = snd (fst r2) ++ d2 /\
     (snd r1 = VOk -> d1 = [] /\ d2 = [] /\ same_core (fst (fst r1)) (fst (fst r2)))).
Proof.
  intros Hs Hq Hc r1 r2.
  assert (HR : srel s s) by (split; [apply same_core_refl|split; [reflexivity|split; exact Hs]]).
  destruct (feed_server_vs_pfeeds clock p1 s s [] [] HR eq_refl) as [t1 [seen1 [F1 [dr1 [E1 K1]]]]].
  destruct (feed_server_vs_pfeeds clock p2 s s [] [] HR eq_refl) as [t2 [seen2 [F2 [dr2 [E2 K2]]]]].
  fold r1 in F1, E1, K1. fold r2 in F2, E2, K2.
  destruct (session_partition_independent _ _ _ VOk sv_de upd_de (fun _ _ => eq_refl) upd_de_de (fun _ _ _ => eq_refl) swire VPanic (sh clock)
              ltac:(discriminate) (sh_bad clock) (sh_sext clock) s p1 p2 [] t1 seen1 (snd r1) t2 seen2 (snd r2) Hq Hc F1 F2) as [Hseen [Hv Hst]].
  split; [exact Hv|]. exists (events seen1), dr1, dr2. split; [exact E1|]. split; [rewrite Hseen; exact E2|].
  intros Hok. destruct (K1 Hok) as [Z1 C1]. specialize (Hst Hok). rewrite Hv in Hok. destruct (K2 Hok) as [Z2 C2].
  split; [exact Z1|]. split; [exact Z2|]. subst t2. exact (same_core_join _ _ _ C1 C2).
Qed.

Corollary server_pieces s packets pieces clock s1 evs :
  ser_ok (sv_ser s) -> G (sv_de s) = (sv_de s, DNone) -> concat pieces = concat packets ->
  feed_server s packets clock [] = (s1, evs, VOk) ->
  exists s2, feed_server s pieces clock [] = (s2, evs, VOk) /\ same_core s1 s2.
Proof.
  intros Hs Hq Hc E. pose proof (server_partition_independent s packets pieces clock Hs Hq (eq_sym Hc)) as H.
  cbv zeta in H. rewrite E in H. destruct (feed_server s pieces clock []) as [[s2 e2] v2]. cbn [fst snd] in H.
  destruct H as [<- [common [d1 [d2 [C1 [C2 K]]]]]]. destruct (K eq_refl) as [-> [-> Hcore]]. rewrite !app_nil_r in *. subst common.
  exists s2. rewrite <- C2. split; [reflexivity|exact Hcore].
Qed.
