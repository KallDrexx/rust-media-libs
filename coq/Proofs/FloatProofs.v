(* u32 -> f64 -> u32 is the identity (metadata fields travel as AMF0 numbers); casts produce 64-bit patterns *)
From Coq Require Import ZArith Lia ZifyN ZifyBool ZifyNat.
From RML Require Import Model.Base Model.Float.
Local Open Scope N_scope.

Lemma pow2_split p : p <= 52 -> 2 ^ p * 2 ^ (52 - p) = 4503599627370496.
Proof. intros H. rewrite <- N.pow_add_r. replace (p + (52 - p)) with 52 by lia. reflexivity. Qed.

(* a b-bit number as leading bit 2^p and fraction shifted up to 52 bits *)
Lemma log2_mantissa n b : 0 < n -> n < 2 ^ b -> b <= 53 ->
  let p := N.log2 n in
  p < b /\ 2 ^ p <= n /\ n < 2 ^ p * 2 /\ (n - 2 ^ p) * 2 ^ (52 - p) < 4503599627370496.
Proof.
  intros H0 Hb Hb53 p. pose proof (N.log2_spec n H0) as [L1 L2]. fold p in L1, L2. rewrite N.pow_succ_r' in L2.
  assert (Hp : p < b) by (apply N.log2_lt_pow2; assumption).
  repeat split; [exact Hp|exact L1|lia|].
  rewrite <- (pow2_split p ltac:(lia)). apply N.mul_lt_mono_pos_r; [|lia]. apply N.neq_0_lt_0, N.pow_nonzero. lia.
Qed.

Lemma u32_to_f64_parts n : 0 < n -> n < 4294967296 ->
  let p := N.log2 n in
  p <= 31 /\ 2 ^ p <= n /\ n < 2 ^ p * 2 /\
  u32_to_f64 n = (1023 + p) * 4503599627370496 + (n - 2 ^ p) * 2 ^ (52 - p) /\
  (n - 2 ^ p) * 2 ^ (52 - p) < 4503599627370496.
Proof.
  intros H0 H32 p. destruct (log2_mantissa n 32 H0 H32 ltac:(lia)) as [Hp [L1 [L2 Hm]]]. fold p in Hp, L1, L2, Hm.
  repeat split; try assumption; [lia|]. unfold u32_to_f64. destruct (n =? 0) eqn:E; [lia|]. reflexivity.
Qed.

Theorem u32_roundtrip n : n < 4294967296 -> f64_to_u32 (u32_to_f64 n) = n.
Proof.
  intros H32. destruct (N.eq_dec n 0) as [-> | Hn]; [reflexivity|].
  destruct (u32_to_f64_parts n ltac:(lia) H32) as [Hp [L1 [L2 [E Hm]]]]. cbv zeta in *.
  set (p := N.log2 n) in *. set (k := 2 ^ (52 - p)) in *. set (m := (n - 2 ^ p) * k) in *.
  assert (Hk : 2 ^ p * k = 4503599627370496) by (apply pow2_split; lia).
  assert (Hk0 : 0 < k) by (apply N.neq_0_lt_0; apply N.pow_nonzero; lia).
  assert (Hexp : f64_exp (u32_to_f64 n) = 1023 + p).
  { unfold f64_exp. rewrite E. rewrite N.div_add_l by lia. rewrite (N.div_small m) by exact Hm.
    rewrite N.add_0_r. apply N.mod_small. lia. }
  assert (Hman : f64_man (u32_to_f64 n) = m).
  { unfold f64_man. rewrite E. rewrite N.add_comm. rewrite N.mod_add by lia. apply N.mod_small. exact Hm. }
  assert (Hsign : f64_sign (u32_to_f64 n) = false).
  { unfold f64_sign. rewrite E. apply N.leb_gt. nia. }
  unfold f64_to_u32, f64_is_nan, f64_trunc_mag. rewrite Hexp, Hman, Hsign.
  replace (1023 + p =? 2047) with false by lia. cbn [andb]. cbv iota.
  replace (1055 <=? 1023 + p) with false by lia.
  replace (1023 + p <? 1023) with false by lia. replace (1023 + p <=? 1075) with true by lia.
  replace (1075 - (1023 + p)) with (52 - p) by lia. fold k.
  unfold m. rewrite <- Hk. replace ((n - 2 ^ p) * k + 2 ^ p * k) with (n * k) by nia.
  apply N.div_mul. lia.
Qed.

Lemma u32_to_f64_bound n : n < 4294967296 -> u32_to_f64 n < 18446744073709551616.
Proof.
  intros H32. destruct (N.eq_dec n 0) as [-> | Hn]; [reflexivity|].
  destruct (u32_to_f64_parts n ltac:(lia) H32) as [Hp [L1 [L2 [E Hm]]]]. cbv zeta in *. rewrite E. lia.
Qed.

Lemma f32_to_f64_bound b : b < 4294967296 -> f32_to_f64 b < 18446744073709551616.
Proof.
  intros H. unfold f32_to_f64.
  set (s := if 2147483648 <=? b then 9223372036854775808 else 0).
  assert (Hs : s <= 9223372036854775808) by (unfold s; destruct (2147483648 <=? b); lia).
  assert (He : (b / 8388608) mod 256 < 256) by (apply N.mod_upper_bound; lia).
  assert (Hm : b mod 8388608 < 8388608) by (apply N.mod_upper_bound; lia).
  set (e := (b / 8388608) mod 256) in *. set (m := b mod 8388608) in *.
  destruct (e =? 255) eqn:E1.
  - destruct (m =? 0); [lia|]. pose proof (N.mod_upper_bound (m * 536870912) 2251799813685248 ltac:(lia)). lia.
  - destruct (e =? 0) eqn:E2.
    + destruct (m =? 0) eqn:E3; [lia|].
      destruct (log2_mantissa m 23 ltac:(lia) Hm ltac:(lia)) as [Hp [L1 [L2 Hk]]]. set (p := N.log2 m) in *.
      lia.
    + lia.
Qed.
