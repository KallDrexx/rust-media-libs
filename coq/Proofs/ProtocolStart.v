(* C02: from freshly created sessions to the states the workflow theorems start from.  A Set Chunk Size announcement one session
   makes is applied by the peer's handle_input and the chunk layers are linked again; the server's initial control packets and the
   client's post-connect announcements are absorbed without events that change the workflow state. *)
From Coq Require Import Lia String.
From RML Require Import Model.Base Model.Utf8 Model.Chunk Model.ChunkSer Model.ChunkDe Model.Amf0 Model.Messages Model.Float Model.SessionCommon
  Model.Server Model.Client Gen.Consts Spec.Amf0Wire Proofs.MessageProofs Proofs.ConfigProofs Proofs.InteropProofs
  Proofs.BaseProofs Proofs.Amf0Size Proofs.ServerProofs Proofs.SessionPartition Proofs.ClientPartition Proofs.ProtocolProofs
  Proofs.ProtocolFlow Proofs.Utf8Proofs.
Local Open Scope N_scope.

Lemma chunk_size_payload n : 1 <= n <= 2147483647 -> of_payload TID_SetChunkSize (be32 n) = Ok (MSetChunkSize n).
Proof.
  intros H. unfold of_payload. change (TID_SetChunkSize =? 1) with true. cbv iota.
  rewrite read_u32_be32_nil by (unfold u32; lia). replace (MAX_CHUNK_SIZE_MSG <? n) with false by (unfold MAX_CHUNK_SIZE_MSG; lia). reflexivity.
Qed.

Lemma driver_apply_size de1 n ts de2 : 1 <= n <= 2147483647 ->
  driver_apply de1 {| m_ts := ts; m_tid := TID_SetChunkSize; m_sid := 0; m_data := be32 n |} = Ok de2 ->
  de_set_max_chunk_size de1 n = Ok de2.
Proof.
  intros H. unfold driver_apply. cbn [m_tid m_data]. change (TID_SetChunkSize =? 1) with true. cbv iota.
  pose proof (read_u32_be32_nil n ltac:(unfold u32; lia)) as R. unfold read_u32 in R.
  destruct (take_n (be32 n) 4) as [[bb rr]|]; [|discriminate R]. injection R as R1 R2. rewrite R1.
  destruct (de_set_max_chunk_size de1 n) as [d|e|x|]; intros E; try discriminate E. injection E as ->. reflexivity.
Qed.

Lemma link_chunk_size ser de n ts b ser' :
  Link ser de -> 1 <= n <= 2147483647 -> ts < 4294967296 -> ChunkSer.set_max_chunk_size ser n ts = Ok (b, ser') ->
  exists p de1 de3, of_payload (m_tid p) (m_data p) = Ok (MSetChunkSize n) /\ de_set_max_chunk_size de1 n = Ok (de_after p de1) /\
    get_next_message de b = (de1, DMsg p) /\ get_next_message (de_after p de1) [] = (de3, DNone) /\ Link ser' de3.
Proof.
  intros HL Hn Hts Hset.
  destruct (link_op ser de (OpSize n ts) b ser' HL Hts Hset) as [de1 [de2 [de3 [G1 [Hdrv [G2 HL2]]]]]].
  cbn [op_msg] in G1, Hdrv. pose proof (driver_apply_size de1 n ts de2 Hn Hdrv) as Hde.
  exists {| m_ts := ts; m_tid := TID_SetChunkSize; m_sid := 0; m_data := be32 n |}, de1, de3.
  unfold de_after. cbn [m_tid m_data]. rewrite (chunk_size_payload n Hn), Hde. repeat split; assumption.
Qed.

Theorem server_receives_chunk_size s ser n ts b ser' clock :
  Link ser (sv_de s) -> ser_ok (sv_ser s) -> 1 <= n <= 2147483647 -> ts < 4294967296 ->
  ChunkSer.set_max_chunk_size ser n ts = Ok (b, ser') ->
  exists s2 r, server_handle_input s b clock = (s2, ROk r) /\
  events r = [] /\ same_core s s2 /\ Link ser' (sv_de s2) /\ ser_ok (sv_ser s2) /\
  (quiet (sv_ack s) b -> r = [] /\ sv_ser s2 = sv_ser s /\ sv_ack s2 = fst (ack_step (sv_ack s) (lenN b))).
Proof.
  intros HL Hss Hn Hts Hset.
  destruct (link_chunk_size ser (sv_de s) n ts b ser' HL Hn Hts Hset) as [p [de1 [de3 [Hof [Hde [G1 [G2 HL2]]]]]]].
  destruct (server_reads s b clock p de1 (de_after p de1) de3 Hss G1 (fun ser0 a0 => h_message_de_after _ p clock) G2) as [bs [ser0 [Hp E]]].
  unfold h_message in E. rewrite Hof in E. cbn [sv_de upd_de] in E. rewrite Hde in E.
  eexists. eexists. split; [exact E|]. split; [apply events_packets|]. split; [repeat split|]. split; [exact HL2|].
  split; [exact (prelude_ser_ok _ _ _ _ _ _ Hss Hp)|].
  intros Hq. destruct (prelude_quiet _ _ _ _ _ _ Hq Hp) as [-> ->]. repeat split.
Qed.

Theorem client_receives_chunk_size c ser n ts b ser' clock :
  Link ser (cl_de c) -> ser_ok (cl_ser c) -> 1 <= n <= 2147483647 -> ts < 4294967296 ->
  ChunkSer.set_max_chunk_size ser n ts = Ok (b, ser') ->
  exists c2 r, client_handle_input c b clock = (c2, COk r) /\
  cevents r = [] /\
  (cl_cfg c2 = cl_cfg c /\ cl_next_tr c2 = cl_next_tr c /\ cl_trs c2 = cl_trs c /\ cl_state c2 = cl_state c /\
   cl_app c2 = cl_app c /\ cl_stream c2 = cl_stream c) /\ Link ser' (cl_de c2) /\ ser_ok (cl_ser c2) /\
  (quiet (cl_ack c) b -> r = [] /\ cl_ser c2 = cl_ser c /\ cl_ack c2 = fst (ack_step (cl_ack c) (lenN b))).
Proof.
  intros HL Hss Hn Hts Hset.
  destruct (link_chunk_size ser (cl_de c) n ts b ser' HL Hn Hts Hset) as [p [de1 [de3 [Hof [Hde [G1 [G2 HL2]]]]]]].
  destruct (client_reads c b clock p de1 (de_after p de1) de3 Hss G1 (fun ser0 a0 => ch_message_de_after _ p clock) G2) as [bs [ser0 [Hp E]]].
  unfold ch_message in E. rewrite Hof in E. cbn [cl_de cupd_de] in E. rewrite Hde in E.
  eexists. eexists. split; [exact E|]. split; [apply cevents_packets|]. split; [repeat split|]. split; [exact HL2|].
  split; [exact (prelude_ser_ok _ _ _ _ _ _ Hss Hp)|].
  intros Hq. destruct (prelude_quiet _ _ _ _ _ _ Hq Hp) as [-> ->]. repeat split.
Qed.

Theorem server_learns_window s ser w ts b ser' clock :
  Link ser (sv_de s) -> ser_ok (sv_ser s) -> w < 4294967296 -> ts < 4294967296 ->
  send_message ser (MWindowAcknowledgement w) ts 0 false false = Ok (b, ser') ->
  exists s2 r, server_handle_input s b clock = (s2, ROk r) /\
  events r = [] /\ same_core s s2 /\ Link ser' (sv_de s2) /\ ser_ok (sv_ser s2) /\ ack_window (sv_ack s2) = Some w /\
  (quiet (sv_ack s) b -> r = [] /\ sv_ser s2 = sv_ser s).
Proof.
  intros HL Hss Hw Hts Hsend.
  destruct (server_receives s ser (MWindowAcknowledgement w) ts 0 false false b ser' clock HL Hss Hw I Hts ltac:(lia) Hsend)
    as [pk [de1 [de3 [s0 [pre [Hof [Hsid [Htsp [Hc0 [Hd0 [Hs0 [Hpre [Hq [Hack [HL2 Hrun]]]]]]]]]]]]]]].
  assert (Hm : h_message (upd_de s0 de1) pk clock = (upd_ack (upd_de s0 de1) (ack_learn (sv_ack s0) w), ROk [])).
  { unfold h_message. rewrite Hof. reflexivity. }
  rewrite Hm in Hrun. cbv iota beta in Hrun. rewrite app_nil_r in Hrun.
  eexists. eexists. split; [exact Hrun|]. split; [exact Hpre|]. split; [exact Hc0|]. split; [exact HL2|]. split; [exact Hs0|]. split; [reflexivity|exact Hq].
Qed.

Lemma accept_body s app x : lenN (sv_fms s) <= 65535 -> lenN app <= 65000 ->
  body_le (MAmf0Command (str "_result") x (accept_obj s) [accept_info s app]) 16777215.
Proof.
  intros Hf Ha. unfold accept_obj, accept_info. apply command_body.
  - cbn [expressible_all expressible]. rewrite lenN_app. replace (lenN (sv_fms s) <=? 65535) with true by lia.
    replace (lenN (str "Successfully connected on app: ") + lenN app <=? 65535) with true by (rewrite lenN_str; cbn [String.length]; lia).
    reflexivity.
  - cbn [vssize]. rewrite !vsize_object. cbn [psize vsize]. rewrite lenN_app, !lenN_str. cbn [String.length]. lia.
Qed.

Lemma accept_connection_ok s n app' tr clock :
  lookup n (sv_reqs s) = Some (RConnection app' tr) -> ser_ok (sv_ser s) -> lenN (sv_fms s) <= 65535 -> lenN app' <= 65000 ->
  exists s2 b, server_accept s n clock = (s2, ROk [SPacket b false]).
Proof.
  intros Hreq Hss Hf Ha. unfold server_accept. rewrite Hreq. cbv zeta iota. unfold accept_connection. cbv zeta.
  unfold one_packet, sending. cbn [sv_ser sv_fms sv_objenc upd_conn upd_reqs].
  fold (accept_obj s). fold (accept_info s app').
  destruct (send_fits (sv_ser s) (MAmf0Command (str "_result") tr (accept_obj s) [accept_info s app']) clock 0 false false _ Hss
              (accept_body s app' tr Hf Ha) (N.le_refl _)) as [b [ser' [E _]]].
  rewrite E. eexists. exists b. reflexivity.
Qed.

(* The accepted connect leaves two client packets in flight (its window and its chunk size).  Once the server has read them the
   pair is in the state C02_publish_completes / C02_play_completes start from. *)
Theorem connect_ready s c n app' trn app clock cclock k1 k2 :
  Link (sv_ser s) (cl_de c) -> Link (cl_ser c) (sv_de s) -> ser_ok (cl_ser c) -> ser_ok (sv_ser s) ->
  lookup n (sv_reqs s) = Some (RConnection app' (u32_to_f64 trn)) -> trn < 4294967296 ->
  lookup trn (cl_trs c) = Some (TConnection app) ->
  accept_strings_ok s app' -> lenN (sv_fms s) <= 65535 -> lenN app' <= 65000 ->
  clock < 4294967296 -> cclock < 4294967296 ->
  1 <= cc_chunk (cl_cfg c) <= 2147483647 -> cc_window (cl_cfg c) < 4294967296 ->
  exists b s2 c2 rs,
    server_accept s n clock = (s2, ROk [SPacket b false]) /\
    client_handle_input c b cclock = (c2, COk rs) /\ cevents rs = [CConnectionAccepted] /\
    cl_state c2 = Connected /\ cl_app c2 = Some app /\ sv_connected s2 = true /\ sv_app s2 = Some app' /\
  (quiet (cl_ack c) b ->
  exists w1 w2, rs = [CPacket w1 false; CEvent CConnectionAccepted; CPacket w2 false] /\
  exists s3 r3, server_handle_input s2 w1 k1 = (s3, ROk r3) /\ events r3 = [] /\
  (quiet (sv_ack s2) w1 -> r3 = [] /\
  exists s4 r4, server_handle_input s3 w2 k2 = (s4, ROk r4) /\ events r4 = [] /\
  (quiet (sv_ack s3) w2 -> r4 = [] /\
   Link (cl_ser c2) (sv_de s4) /\ Link (sv_ser s4) (cl_de c2) /\ ser_ok (cl_ser c2) /\ ser_ok (sv_ser s4) /\
   sv_connected s4 = true /\ sv_app s4 = Some app' /\ sv_next_stream s4 = sv_next_stream s /\
   cl_next_tr c2 = cl_next_tr c /\ cl_cfg c2 = cl_cfg c /\ ack_window (sv_ack s4) = Some (cc_window (cl_cfg c))))).
Proof.
  intros HL2 HL1 Hcs Hss Hreq Htrn Htr Hstr Hf Ha Hclk Hcclk Hchunk Hwin.
  destruct (accept_connection_ok s n app' (u32_to_f64 trn) clock Hreq Hss Hf Ha) as [s2' [b' Hacc']].
  destruct (connect_accept_delivered s c n app' trn app clock cclock HL2 Hcs Hss Hreq Htrn Htr Hstr Hclk Hcclk Hchunk)
    as [[e He] | [b [s2 [c2 [rs [w1 [w2 [pre [A1 [A2 [A3 [A4 [A5 [A6 [A7 [A8 [A9 [A10 [A11 [A12 [A13 [B1 [B2 [B3 [B4 [B5 [B6 [B7 [B8 Hq]]]]]]]]]]]]]]]]]]]]]]]]]]]]];
    [rewrite Hacc' in He; discriminate He|].
  exists b, s2, c2, rs. split; [exact A1|]. split; [exact A5|].
  split; [rewrite A6, cevents_app, A7; reflexivity|].
  split; [exact A8|]. split; [exact A9|]. split; [exact A2|]. split; [exact A3|].
  intros Hq0. destruct (Hq Hq0) as [-> [ser1 [Es1 Es2]]]. exists w1, w2. split; [exact A6|].
  assert (HL1' : Link (cl_ser c) (sv_de s2)) by (rewrite B4; exact HL1).
  destruct (server_learns_window s2 (cl_ser c) (cc_window (cl_cfg c)) cclock w1 ser1 k1 HL1' B8 Hwin Hcclk Es1)
    as [s3 [r3 [Hin3 [Ev3 [Hc3 [HL3 [Hs3 [Hw3 Hq3]]]]]]]].
  exists s3, r3. split; [exact Hin3|]. split; [exact Ev3|]. intros Q3. destruct (Hq3 Q3) as [-> Hser3]. split; [reflexivity|].
  destruct (server_receives_chunk_size s3 ser1 (cc_chunk (cl_cfg c)) 0 w2 (cl_ser c2) k2 HL3 Hs3 Hchunk ltac:(lia) Es2)
    as [s4 [r4 [Hin4 [Ev4 [Hc4 [HL4 [Hs4 Hq4]]]]]]].
  exists s4, r4. split; [exact Hin4|]. split; [exact Ev4|]. intros Q4. destruct (Hq4 Q4) as [-> [Hser4 Hack4]]. split; [reflexivity|].
  destruct Hc3 as [C1 [C2 [C3 [C4 [C5 [C6 [C7 C8]]]]]]]. destruct Hc4 as [D1 [D2 [D3 [D4 [D5 [D6 [D7 D8]]]]]]].
  split; [exact HL4|]. split; [rewrite Hser4, Hser3; exact A11|]. split; [exact A12|]. split; [exact Hs4|].
  split; [rewrite D4, C4; exact A2|]. split; [rewrite D1, C1; exact A3|]. split; [rewrite D6, C6; exact B7|].
  split; [exact B2|]. split; [exact B1|].
  rewrite Hack4. unfold ack_step. rewrite Hw3. cbv zeta. destruct (_ <=? _); exact eq_refl.
Qed.

Definition ccore (c c2 : client) : Prop :=
  cl_cfg c2 = cl_cfg c /\ cl_next_tr c2 = cl_next_tr c /\ cl_trs c2 = cl_trs c /\ cl_state c2 = cl_state c /\
  cl_app c2 = cl_app c /\ cl_stream c2 = cl_stream c.
Lemma ccore_trans a b c : ccore a b -> ccore b c -> ccore a c.
Proof. unfold ccore. intros [A1 [A2 [A3 [A4 [A5 A6]]]]] [B1 [B2 [B3 [B4 [B5 B6]]]]]. repeat split; congruence. Qed.

Definition bwdone : rtmp_message := MAmf0Command (str "onBWDone") 0 VNull [VNumber 4665729213955833856].
Lemma ch_command_bwdone c tr obj args clock :
  ch_command c (str "onBWDone") tr obj args clock = (c, COk [CEvent (CUnhandleableCommand (str "onBWDone") tr obj args)]).
Proof. unfold ch_command. eqb_strs. reflexivity. Qed.
Lemma h_command_bwdone s sid tr obj args clock :
  h_command s sid (str "onBWDone") tr obj args clock = (s, ROk [SEvent (EvUnhandleableCommand (str "onBWDone") tr obj args)]).
Proof. unfold h_command. eqb_strs. reflexivity. Qed.

(* messages either session takes note of without changing its workflow state *)
Definition noted (m : rtmp_message) : Prop :=
  (exists w, m = MWindowAcknowledgement w /\ w < 4294967296) \/ m = MUserControl StreamBegin (Some 0) None None \/
  (exists n lt, m = MSetPeerBandwidth n lt /\ n < 4294967296) \/ m = bwdone \/
  (exists n, m = MAcknowledgement n /\ n < 4294967296).      (* the acknowledgement a peer emits when its counter reaches the window *)

Lemma noted_ok m : noted m -> msg_ok m /\ plain m.
Proof.
  intros [[w [-> Hw]]|[ -> |[[n [l0 [-> Hb]]] | [ -> | [n [-> Hb]]]]]]; (split; [|exact I]).
  - exact Hw.
  - cbn [msg_ok]. split; [exists 0; split; [reflexivity|unfold u32; lia]|split; reflexivity].
  - exact Hb.
  - cbn [msg_ok bwdone wf_values wf_value]. repeat split; try reflexivity; lia.
  - exact Hb.
Qed.

(* both handlers answer a noted message without touching the session, except that a window announcement is remembered *)
Lemma noted_client m c ser0 a0 de1 p clock : noted m -> of_payload (m_tid p) (m_data p) = Ok m ->
  exists a1 out,
    ch_message (cupd_de (cupd_ack (cupd_ser c ser0) a0) de1) p clock = (cupd_de (cupd_ack (cupd_ser c ser0) a1) de1, COk out) /\
    (forall e, In e (cevents out) -> match e with CUnhandleableCommand _ _ _ _ | CAcknowledgement _ => True | _ => False end).
Proof.
  intros Hn Hof. unfold ch_message. rewrite Hof.
  destruct Hn as [[w [-> Hw]]|[ -> |[[n [l0 [-> Hb]]] | [ -> | [n [-> Hb]]]]]]; cbv iota.
  4: unfold bwdone; cbv iota; rewrite ch_command_bwdone.
  all: eexists; eexists; (split; [reflexivity|]).
  4, 5: intros e [<-|[]]; exact I.
  all: intros e [].
Qed.

Lemma noted_server m s ser0 a0 de1 p clock : noted m -> of_payload (m_tid p) (m_data p) = Ok m ->
  exists a1 out, h_message (upd_de (upd_ack (upd_ser s ser0) a0) de1) p clock = (upd_de (upd_ack (upd_ser s ser0) a1) de1, ROk out).
Proof.
  intros Hn Hof. unfold h_message. rewrite Hof.
  destruct Hn as [[w [-> Hw]]|[ -> |[[n [l0 [-> Hb]]] | [ -> | [n [-> Hb]]]]]]; cbv iota.
  4: unfold bwdone; cbv iota; rewrite h_command_bwdone.
  all: eexists; eexists; reflexivity.
Qed.

Theorem client_notes ser ser' b c m ts cclock f :
  noted m -> Link ser (cl_de c) -> ser_ok (cl_ser c) -> ts < 4294967296 ->
  send_message ser m ts 0 f false = Ok (b, ser') ->
  exists c2 r, client_handle_input c b cclock = (c2, COk r) /\
  (forall e, In e (cevents r) -> match e with CConnectionAccepted | CConnectionRejected _ | CPublishAccepted | CPlaybackAccepted | CVideo _ _ | CAudio _ _ | CMetadata _ => False | _ => True end) /\
  ccore c c2 /\ Link ser' (cl_de c2) /\ ser_ok (cl_ser c2) /\
  (quiet (cl_ack c) b -> cl_ser c2 = cl_ser c).
Proof.
  intros Hn HL Hcs Hts Hsend. destruct (noted_ok m Hn) as [Hok Hpl]. destruct (plain_id m Hpl) as [Ht Ht1].
  destruct (client_reads_sent c ser m ts 0 f false b ser' cclock HL Hcs Hok Ht Ht1 Hts ltac:(lia) Hsend)
    as [p [de1 [de3 [bs [ser0 [Hof [_ [_ [Hpre [HL2 E]]]]]]]]]].
  destruct (noted_client m c ser0 (fst (ack_step (cl_ack c) (lenN b))) de1 p cclock Hn Hof) as [a1 [out [Hm Hout]]]. rewrite Hm in E.
  eexists. eexists. split; [exact E|].
  split. { intros e He. rewrite cevents_packets in He. specialize (Hout e He). destruct e; try contradiction; exact I. }
  split; [repeat split|]. split; [exact HL2|]. split; [exact (prelude_ser_ok _ _ _ _ _ _ Hcs Hpre)|].
  intros Hq. destruct (prelude_quiet _ _ _ _ _ _ Hq Hpre) as [_ ->]. reflexivity.
Qed.

(* a run of control packets written by one serializer: noted messages and chunk-size announcements *)
Inductive sends : sstate -> list bytes -> sstate -> Prop :=
| sends_nil ser : sends ser [] ser
| sends_msg ser m ts f b ser1 bs ser' :
    noted m -> ts < 4294967296 -> send_message ser m ts 0 f false = Ok (b, ser1) -> sends ser1 bs ser' -> sends ser (b :: bs) ser'
| sends_size ser n ts b ser1 bs ser' :
    1 <= n <= 2147483647 -> ts < 4294967296 -> ChunkSer.set_max_chunk_size ser n ts = Ok (b, ser1) -> sends ser1 bs ser' -> sends ser (b :: bs) ser'.

(* the packets ps read in order, one per input call (cdelivers in ProtocolFlow is about a single call); cquiet: no
   acknowledgement falls due in any of those calls *)
Fixpoint cdeliver (c : client) (ps : list bytes) (clock : N) : option client :=
  match ps with
  | [] => Some c
  | p :: r => match client_handle_input c p clock with (c1, COk _) => cdeliver c1 r clock | _ => None end
  end.
Fixpoint cquiet (c : client) (ps : list bytes) (clock : N) : Prop :=
  match ps with
  | [] => True
  | p :: r => quiet (cl_ack c) p /\ match client_handle_input c p clock with (c1, COk _) => cquiet c1 r clock | _ => True end
  end.

Theorem client_absorbs ser bs ser' : sends ser bs ser' -> forall c clock,
  Link ser (cl_de c) -> ser_ok (cl_ser c) ->
  exists c', cdeliver c bs clock = Some c' /\ ccore c c' /\ Link ser' (cl_de c') /\ ser_ok (cl_ser c') /\
             (cquiet c bs clock -> cl_ser c' = cl_ser c).
Proof.
  induction 1 as [ser|ser m ts f b ser1 bs ser' Hn Hts Hsend Hrest IH|ser n ts b ser1 bs ser' Hn Hts Hset Hrest IH]; intros c clock HL Hcs.
  - exists c. split; [reflexivity|]. split; [repeat split|]. split; [exact HL|]. split; [exact Hcs|]. intros _. reflexivity.
  - destruct (client_notes ser ser1 b c m ts clock f Hn HL Hcs Hts Hsend) as [c2 [r [Hin [_ [Hcore [HL2 [Hs2 Hq]]]]]]].
    destruct (IH c2 clock HL2 Hs2) as [c' [Hd [Hcore' [HL' [Hs' Hq']]]]].
    exists c'. cbn [cdeliver cquiet]. rewrite Hin. split; [exact Hd|]. split; [exact (ccore_trans _ _ _ Hcore Hcore')|]. split; [exact HL'|]. split; [exact Hs'|].
    intros [Q1 Q2]. rewrite (Hq' Q2). exact (Hq Q1).
  - destruct (client_receives_chunk_size c ser n ts b ser1 clock HL Hcs Hn Hts Hset) as [c2 [r [Hin [_ [Hcore [HL2 [Hs2 Hq]]]]]]].
    destruct (IH c2 clock HL2 Hs2) as [c' [Hd [Hcore' [HL' [Hs' Hq']]]]].
    exists c'. cbn [cdeliver cquiet]. rewrite Hin. split; [exact Hd|]. split; [exact (ccore_trans _ _ _ Hcore Hcore')|]. split; [exact HL'|]. split; [exact Hs'|].
    intros [Q1 Q2]. rewrite (Hq' Q2). exact (proj1 (proj2 (Hq Q1))).
Qed.

Definition spackets (rs : list sresult) : list bytes := flat_map (fun r => match r with SPacket b _ => [b] | _ => [] end) rs.

Theorem server_new_sends cfg clock :
  1 <= cfg_chunk cfg <= 2147483647 -> cfg_window cfg < 4294967296 -> cfg_bandwidth cfg < 4294967296 -> clock < 4294967296 ->
  exists s0 rs, server_new cfg clock = (s0, ROk rs) /\ events rs = [] /\ sends ser_init (spackets rs) (sv_ser s0) /\
    sv_de s0 = de_init /\ sv_connected s0 = false /\ sv_reqs s0 = [] /\ sv_next_req s0 = 0 /\ sv_streams s0 = [] /\ sv_next_stream s0 = 1 /\
    sv_fms s0 = cfg_fms cfg /\ sv_ack s0 = {| ack_window := None; ack_since := 0 |} /\ ser_ok (sv_ser s0).
Proof.
  intros Hc Hw Hb Hclk. unfold server_new. cbv zeta.
  destruct (ser_chunk_size_refused ser_init (cfg_chunk cfg) 0 ser_init_max) as [_ Hset]. destruct (Hset Hc) as [b1 [ser1 [E1 Hm1]]].
  cbn [sv_ser]. rewrite E1. unfold sending. cbn [sv_ser upd_ser].
  assert (H1 : ser_ok ser1) by (unfold ser_ok; lia).
  assert (Fw : body_le (MWindowAcknowledgement (cfg_window cfg)) 200) by (eexists; eexists; split; [reflexivity|vm_compute; discriminate]).
  destruct (send_fits ser1 _ clock 0 true false 200 H1 Fw ltac:(lia)) as [b2 [ser2 [E2 H2]]]. rewrite E2. cbn [sv_ser upd_ser].
  destruct (send_fits ser2 (MUserControl StreamBegin (Some 0) None None) clock 0 true false 200 H2 (user_control_body _ _ _ _) ltac:(lia))
    as [b3 [ser3 [E3 H3]]]. rewrite E3. cbn [sv_ser upd_ser].
  assert (Fb : body_le (MSetPeerBandwidth (cfg_bandwidth cfg) Dynamic) 200) by (eexists; eexists; split; [reflexivity|vm_compute; discriminate]).
  destruct (send_fits ser3 _ clock 0 true false 200 H3 Fb ltac:(lia)) as [b4 [ser4 [E4 H4]]]. rewrite E4. cbn [sv_ser upd_ser].
  assert (S4 : forall bs ser', sends ser4 bs ser' -> sends ser_init (b1 :: b2 :: b3 :: b4 :: bs) ser').
  { intros bs ser' Hrest. apply (sends_size ser_init (cfg_chunk cfg) 0 b1 ser1 _ _ Hc ltac:(lia) E1).
    eapply sends_msg; [left; eexists; split; [reflexivity|exact Hw]|exact Hclk|exact E2|].
    eapply sends_msg; [right; left; reflexivity|exact Hclk|exact E3|].
    eapply sends_msg; [right; right; left; eexists; eexists; split; [reflexivity|exact Hb]|exact Hclk|exact E4|exact Hrest]. }
  destruct (cfg_bwdone cfg).
  - fold bwdone.
    assert (F5 : body_le bwdone 200) by (eexists; eexists; split; [vm_compute; reflexivity|vm_compute; discriminate]).
    destruct (send_fits ser4 bwdone clock 0 true false 200 H4 F5 ltac:(lia)) as [b5 [ser5 [E5 H5]]]. rewrite E5.
    eexists. eexists. split; [reflexivity|]. split; [reflexivity|].
    split; [apply S4; eapply sends_msg; [right; right; right; left; reflexivity|exact Hclk|exact E5|apply sends_nil]|].
    repeat (split; [reflexivity|]). exact H5.
  - eexists. eexists. split; [reflexivity|]. split; [reflexivity|]. split; [exact (S4 _ _ (sends_nil _))|].
    repeat (split; [reflexivity|]). exact H4.
Qed.

(* server_new's control packets, read by a freshly created client one packet per call: every call succeeds, the client is still
   Disconnected with nothing outstanding, and the chunk layers are linked: server to client always, client to server while no acknowledgement fell due (cquiet) - the
   premises of C02_connect_completes on the two session states. *)
Theorem sessions_start cfg ccfg clock k :
  1 <= cfg_chunk cfg <= 2147483647 -> cfg_window cfg < 4294967296 -> cfg_bandwidth cfg < 4294967296 -> clock < 4294967296 ->
  exists s0 rs c',
    server_new cfg clock = (s0, ROk rs) /\ events rs = [] /\
    cdeliver (client_new ccfg) (spackets rs) k = Some c' /\
    cl_state c' = Disconnected /\ cl_trs c' = [] /\ cl_next_tr c' = 1 /\ cl_cfg c' = ccfg /\ cl_stream c' = None /\
    Link (sv_ser s0) (cl_de c') /\ ser_ok (cl_ser c') /\ ser_ok (sv_ser s0) /\
    ack_window (sv_ack s0) = None /\ sv_connected s0 = false /\ sv_next_req s0 = 0 /\ sv_next_stream s0 = 1 /\ sv_fms s0 = cfg_fms cfg /\
    (cquiet (client_new ccfg) (spackets rs) k -> Link (cl_ser c') (sv_de s0)).
Proof.
  intros Hc Hw Hb Hclk.
  destruct (server_new_sends cfg clock Hc Hw Hb Hclk) as [s0 [rs [Hnew [Hev [Hsends [S1 [S2 [S3 [S4 [S5 [S6 [S7 [S8 S9]]]]]]]]]]]]].
  destruct (client_absorbs ser_init (spackets rs) (sv_ser s0) Hsends (client_new ccfg) k Link_init ser_init_max)
    as [c' [Hd [[C1 [C2 [C3 [C4 [C5 C6]]]]] [HL [Hs Hq]]]]].
  exists s0, rs, c'. repeat (split; [assumption|]). split; [rewrite S8; reflexivity|]. repeat (split; [assumption|]).
  intros Q. rewrite (Hq Q), S1. exact Link_init.
Qed.

(* the premise is satisfiable: with ordinary configurations no acknowledgement falls due while the client reads the opening packets *)
Example start_quiet :
  let cfg := {| cfg_fms := str "FMS/3,0,1,123"; cfg_chunk := 4096; cfg_bandwidth := 2500000; cfg_window := 2500000; cfg_bwdone := true |} in
  let ccfg := {| cc_flash := str "v"; cc_buffer := 1000; cc_window := 2500000; cc_chunk := 4096; cc_tcurl := None |} in
  match server_new cfg 0 with
  | (_, ROk rs) => cquiet (client_new ccfg) (spackets rs) 1 /\ List.length (spackets rs) = 5%nat
  | _ => False
  end.
Proof. vm_compute. repeat split. Qed.

Definition sizes_ok (c : client) (app : bytes) : Prop :=
  lenN app <= 65000 /\ lenN (cc_flash (cl_cfg c)) <= 65535 /\ (forall u, cc_tcurl (cl_cfg c) = Some u -> lenN u <= 65535).

Lemma connect_cmd_body c app x : sizes_ok c app ->
  body_le (MAmf0Command (str "connect") x (VObject (connect_props c app)) []) 16777215.
Proof.
  intros [Ha [Hf Hu]]. unfold connect_props.
  assert (Ha' : (lenN app <=? 65535) = true) by lia. assert (Hf' : (lenN (cc_flash (cl_cfg c)) <=? 65535) = true) by lia.
  destruct (cc_tcurl (cl_cfg c)) as [u|]; cbn [List.app]; apply command_body.
  - cbn [expressible_all expressible]. rewrite Ha', Hf', (proj2 (N.leb_le _ _) (Hu u eq_refl)). reflexivity.
  - specialize (Hu u eq_refl). cbn [vssize]. rewrite vsize_object. cbn [psize vsize]. rewrite !lenN_str. cbn [String.length]. lia.
  - cbn [expressible_all expressible]. rewrite Ha', Hf'. reflexivity.
  - cbn [vssize]. rewrite vsize_object. cbn [psize vsize]. rewrite !lenN_str. cbn [String.length]. lia.
Qed.

Lemma connect_request_ok c app clock : ser_ok (cl_ser c) -> cl_state c = Disconnected -> sizes_ok c app ->
  exists c1 b, client_request_connection c app clock = (c1, COk [CPacket b false]).
Proof.
  intros Hcs Hst Hsz. unfold client_request_connection. rewrite Hst. unfold new_transaction. cbv zeta. fold (connect_props c app).
  unfold cone_packet, csending. cbn [cl_ser cupd_trs].
  destruct (send_fits (cl_ser c) (MAmf0Command (str "connect") (u32_to_f64 (cl_next_tr c)) (VObject (connect_props c app)) []) clock 0 false false _ Hcs
              (connect_cmd_body c app _ Hsz) (N.le_refl _)) as [b [ser' [E _]]].
  rewrite E. eexists. exists b. reflexivity.
Qed.

Lemma strip_slash_len app : lenN (strip_slash app) <= lenN app.
Proof.
  unfold strip_slash. destruct (rev app) as [|x r] eqn:E; [lia|].
  destruct (N.eq_dec x 47) as [->|Hx].
  - assert (Hl : List.length app = S (List.length r)) by (rewrite <- (rev_length app), E; reflexivity).
    unfold lenN. rewrite rev_length, Hl. lia.
  - destruct x as [|p]; [lia|]. repeat (destruct p as [p|p|]; try lia).
Qed.

Lemma strip_slash_utf8 app : utf8_valid app = true -> utf8_valid (strip_slash app) = true.
Proof.
  intros Ha. unfold strip_slash. destruct (rev app) as [|x r] eqn:E; [exact Ha|]. destruct (N.eq_dec x 47) as [->|Hx].
  - assert (Eapp : app = rev r ++ [47]) by (rewrite <- (rev_involutive app), E; reflexivity).
    rewrite Eapp in Ha. apply (utf8_drop_last_ascii (rev r) 47); [lia|exact Ha].
  - destruct x as [|p]; [exact Ha|]. repeat (destruct p as [p|p|]; try exact Ha). exfalso. apply Hx. reflexivity.
Qed.

(* C02_connect_completes with every outcome decided: for an application name and tcUrl within sizes_ok and version strings that fit AMF0's 16-bit
   length the calls succeed - no error alternative is left *)
Theorem connect_completes_decided c s app clock sclock aclock cclock :
  Link (cl_ser c) (sv_de s) -> Link (sv_ser s) (cl_de c) -> ser_ok (cl_ser c) -> ser_ok (sv_ser s) ->
  cl_state c = Disconnected -> strings_ok c app -> sizes_ok c app -> ack_window (sv_ack s) = None ->
  utf8_valid (sv_fms s) = true -> lenN (sv_fms s) <= 65535 ->
  clock < 4294967296 -> aclock < 4294967296 -> cclock < 4294967296 -> 1 <= cc_chunk (cl_cfg c) <= 2147483647 ->
  exists b1 c1 s1 b2 s2 c2 rs pre w1 w2,
    client_request_connection c app clock = (c1, COk [CPacket b1 false]) /\
    server_handle_input s b1 sclock = (s1, ROk [SEvent (EvConnectionRequested (sv_next_req s) (strip_slash app))]) /\
    server_accept s1 (sv_next_req s) aclock = (s2, ROk [SPacket b2 false]) /\
    client_handle_input c1 b2 cclock = (c2, COk rs) /\
    rs = pre ++ [CPacket w1 false; CEvent CConnectionAccepted; CPacket w2 false] /\ cevents pre = [] /\
    cl_state c2 = Connected /\ cl_app c2 = Some app /\
    sv_connected s2 = true /\ sv_app s2 = Some (strip_slash app) /\
    Link (sv_ser s2) (cl_de c2) /\ s_max (cl_ser c2) = cc_chunk (cl_cfg c).
Proof.
  intros HL1 HL2 Hcs Hss Hst Hstr Hsz Hw Hfms Hfl Hclk Haclk Hcclk Hchunk.
  assert (Hstrip : utf8_valid (strip_slash app) = true) by (apply strip_slash_utf8; exact (proj1 Hstr)).
  assert (Hdesc : utf8_valid (str "Successfully connected on app: " ++ strip_slash app) = true)
    by (rewrite utf8_ascii_app by (vm_compute; reflexivity); exact Hstrip).
  destruct (connect_request_ok c app clock Hcs Hst Hsz) as [c1' [b1' Hreq']].
  destruct (connect_completes c s app clock sclock aclock cclock HL1 HL2 Hcs Hss Hst Hstr Hw Hfms Hdesc Hclk Haclk Hcclk Hchunk)
    as [[e He] | [[b [c1 [s1 [rs [e [E1 [E2 E3]]]]]]] | H]].
  - rewrite Hreq' in He. cbn [fst] in He. discriminate He.
  - (* the accept cannot fail: the connection request is registered and its reply fits *)
    exfalso.
    destruct (connect_request_delivered c s app clock sclock HL1 Hss Hst Hstr Hclk) as [[e' He'] | [b0 [c0 [s0 [rs0 [F1 [_ [_ [F2 [_ [Freq [_ [Ffms [_ [_ [Fss _]]]]]]]]]]]]]]]].
    + rewrite Hreq' in He'. cbn [fst] in He'. discriminate He'.
    + rewrite E1 in F1. injection F1 as <- <-. rewrite E2 in F2. injection F2 as <- <-.
      destruct Hsz as [Ha _]. pose proof (strip_slash_len app) as Hl.
      destruct (accept_connection_ok s1 (sv_next_req s) (strip_slash app) _ aclock Freq Fss ltac:(rewrite Ffms; exact Hfl) ltac:(lia)) as [s2 [b2 Hacc]].
      rewrite Hacc in E3. discriminate E3.
  - exact H.
Qed.

(* When a receiving call is not quiet, the extra packet it returns is an Acknowledgement; the peer reads it like this. *)
Theorem server_notes_acknowledgement ser ser' b s n ts f sclock :
  Link ser (sv_de s) -> ser_ok (sv_ser s) -> n < 4294967296 -> ts < 4294967296 ->
  send_message ser (MAcknowledgement n) ts 0 f false = Ok (b, ser') ->
  exists s2 r, server_handle_input s b sclock = (s2, ROk r) /\
  events r = [EvAcknowledgement n] /\ same_core s s2 /\ Link ser' (sv_de s2) /\ ser_ok (sv_ser s2) /\
  (quiet (sv_ack s) b -> r = [SEvent (EvAcknowledgement n)] /\ sv_ser s2 = sv_ser s).
Proof.
  intros HL Hss Hn Hts Hsend.
  destruct (server_ignores (clock := sclock) (out := [SEvent (EvAcknowledgement n)]) (Sent (sid := 0) HL Hss Hts ltac:(lia) Hsend) I Hn)
    as [s2 [r [Hin [Hev [Hc [HL2 [Hs2 [_ Hq]]]]]]]].
  { intros s0 p Hof. unfold h_message. rewrite Hof. reflexivity. }
  exists s2, r. split; [exact Hin|]. split; [exact Hev|]. split; [exact Hc|]. split; [exact HL2|]. split; [exact Hs2|exact Hq].
Qed.
