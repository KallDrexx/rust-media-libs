(* AMF0: the decoder maps every specification-conformant encoding to the value it denotes
   (decode_complete), the encoder produces the reference encoding (encode_is_spec), and hence
   encode-then-decode is the identity (roundtrip).  C04 / C12. *)
From Coq Require Import ZArith Lia ZifyN ZifyBool ZifyNat.
From RML Require Import Model.Base Model.Utf8 Model.Amf0 Gen.Consts Spec.Amf0Spec Spec.Amf0Wire Proofs.BaseProofs.
Local Open Scope N_scope.

(* a reader's outcome: a result of which P holds, or a declared error; P passes through obind and may be weakened *)
Definition okp {A} (P : A -> Prop) (o : res A) : Prop := match o with Ok a => P a | Err _ => True | _ => False end.

Lemma okp_bind {A B} {P : A -> Prop} {Q : B -> Prop} {x : res A} {f : A -> res B} :
  okp P x -> (forall a, P a -> okp Q (f a)) -> okp Q (obind x f).
Proof. destruct x; cbn; auto. Qed.

Lemma okp_weaken {A} {P Q : A -> Prop} {x : res A} : okp P x -> (forall a, P a -> Q a) -> okp Q x.
Proof. destruct x; cbn; auto. Qed.

(* the nested fixes of the wire functions are the named ones (equations by conversion) *)
Lemma wire_bytes_object ps : wire_bytes (WObject ps) = 3 :: wire_props_bytes ps ++ [0; 0; 9].
Proof. reflexivity. Qed.

Lemma wire_bytes_ecma c ps : wire_bytes (WEcmaArray c ps) = 8 :: be32 c ++ wire_props_bytes ps ++ [0; 0; 9].
Proof. reflexivity. Qed.

Lemma wire_bytes_array ws : wire_bytes (WStrictArray ws) = 10 :: be32 (lenN ws) ++ wire_elems_bytes ws.
Proof. reflexivity. Qed.

Lemma wire_value_object ps : wire_value (WObject ps) = VObject (wire_props_value ps []).
Proof. reflexivity. Qed.

Lemma wire_value_ecma c ps : wire_value (WEcmaArray c ps) = VObject (wire_props_value ps []).
Proof. reflexivity. Qed.

Lemma wire_ok_object ps : wire_ok (WObject ps) <-> wire_props_ok ps.
Proof.
  cbn [wire_ok]. induction ps as [|[n pw] r IH]; [reflexivity|]. cbn [wire_props_ok]. rewrite <- IH. reflexivity.
Qed.

Lemma wire_ok_ecma c ps : wire_ok (WEcmaArray c ps) <-> c < 4294967296 /\ wire_props_ok ps.
Proof.
  cbn [wire_ok]. apply and_iff_compat_l. exact (wire_ok_object ps).
Qed.

Lemma wire_ok_array ws : wire_ok (WStrictArray ws) <-> lenN ws < 4294967296 /\ wire_elems_ok ws.
Proof.
  cbn [wire_ok]. apply and_iff_compat_l.
  induction ws as [|x r IH]; [reflexivity|]. cbn [wire_elems_ok]. rewrite <- IH. reflexivity.
Qed.

(* read_next_value, marker by marker (null, undefined and the empty input are read off by computation where they occur) *)
Lemma read_value_number f r :
  read_next_value (S f) (0 :: r) =
  match take_n r 8 with None => Err BufferReadError | Some (b, r') => Ok (Some (VNumber (of_be b)), r') end.
Proof. reflexivity. Qed.

Lemma read_value_boolean f r :
  read_next_value (S f) (1 :: r) =
  match r with [] => Err BufferReadError | b :: r' => Ok (Some (VBoolean (negb (b =? 0))), r') end.
Proof. reflexivity. Qed.

Lemma read_value_string f r :
  read_next_value (S f) (2 :: r) =
  match take_n r 2 with
  | None => Err BufferReadError
  | Some (lb, r1) =>
      match take_n r1 (of_be lb) with
      | None => Err BufferReadError
      | Some (s, r2) => if utf8_valid s then Ok (Some (VString s), r2) else Err StringParseError
      end
  end.
Proof. reflexivity. Qed.

Lemma read_value_object f r :
  read_next_value (S f) (3 :: r) = obind (read_props f r []) (fun '(ps, r') => Ok (Some (VObject ps), r')).
Proof. reflexivity. Qed.

Lemma read_value_ecma f r :
  read_next_value (S f) (8 :: r) =
  match take_n r 4 with
  | None => Err BufferReadError
  | Some (_, r1) => obind (read_props f r1 []) (fun '(ps, r') => Ok (Some (VObject ps), r'))
  end.
Proof. reflexivity. Qed.

Lemma end_marker_stops r f : read_next_value (S f) (9 :: r) = Ok (None, r).
Proof. reflexivity. Qed.

Lemma read_value_array f r :
  read_next_value (S f) (10 :: r) =
  match take_n r 4 with
  | None => Err BufferReadError
  | Some (cb, r1) => obind (read_array f (of_be cb) r1 []) (fun '(vs, r') => Ok (Some (VStrictArray vs), r'))
  end.
Proof. reflexivity. Qed.

Lemma read_array_succ f n bs acc :
  read_array (S f) (n + 1) bs acc =
  obind (read_next_value f bs) (fun '(ov, r) => match ov with None => Ok (rev acc, r) | Some x => read_array f n r (x :: acc) end).
Proof. cbn [read_array]. destruct (n + 1 =? 0) eqn:E; [lia|]. replace (n + 1 - 1) with n by lia. reflexivity. Qed.

(* the three readers call one another with one unit of fuel less: three statements by one induction on the fuel *)
Lemma fuel_ind3 (A B C : nat -> Prop) :
  A 0%nat -> B 0%nat -> C 0%nat -> (forall f, A f -> B f -> C f -> A (S f) /\ B (S f) /\ C (S f)) -> forall f, A f /\ B f /\ C f.
Proof. intros A0 B0 C0 step. induction f as [|f [HA [HB HC]]]; [repeat split; assumption|apply step; assumption]. Qed.

Definition P_value (f : nat) : Prop :=
  forall w rest, (length (wire_bytes w) < f)%nat -> wire_ok w ->
    read_next_value f (wire_bytes w ++ rest) = Ok (Some (wire_value w), rest).
Definition P_props (f : nat) : Prop :=
  forall ps rest acc, (length (wire_props_bytes ps) + 3 <= f)%nat -> wire_props_ok ps ->
    read_props f (wire_props_bytes ps ++ [0; 0; 9] ++ rest) acc = Ok (wire_props_value ps acc, rest).
Definition P_elems (f : nat) : Prop :=
  forall ws rest acc, (length (wire_elems_bytes ws) + 1 < f)%nat -> wire_elems_ok ws -> lenN ws < 4294967296 ->
    read_array f (lenN ws) (wire_elems_bytes ws ++ rest) acc = Ok (rev acc ++ map wire_value ws, rest).

Lemma wire_bytes_nonempty w : (1 <= length (wire_bytes w))%nat.
Proof. destruct w; cbn [wire_bytes length]; lia. Qed.

Lemma step_value f : P_value f -> P_props f -> P_elems f -> P_value (S f).
Proof.
  intros HV HP HE w rest Hlen Hok.
  destruct w as [b|b|s|ps|c ps|ws| |]; try reflexivity.
  - cbn [wire_bytes app wire_ok] in *.
    rewrite read_value_number, (take_n_app_len (be64 b) rest 8), of_be_be64 by (assumption || reflexivity). reflexivity.
  - cbn [wire_bytes app wire_ok] in *. destruct Hok as [Hl Hu].
    rewrite read_value_string, <- app_assoc, (take_n_app_len (be16 (lenN s)) (s ++ rest) 2), of_be_be16, take_n_app, Hu
      by (reflexivity || lia). reflexivity.
  - rewrite wire_bytes_object in *. rewrite wire_value_object. apply wire_ok_object in Hok.
    cbn [app]. rewrite read_value_object, <- app_assoc, HP; [reflexivity| |assumption].
    cbn [length] in Hlen. rewrite app_length in Hlen. cbn [length] in Hlen. lia.
  - rewrite wire_bytes_ecma in *. rewrite wire_value_ecma. apply wire_ok_ecma in Hok. destruct Hok as [Hc Hok].
    cbn [app]. rewrite read_value_ecma, <- app_assoc, (take_n_app_len (be32 c) _ 4), <- app_assoc, HP; [reflexivity| |assumption|reflexivity].
    cbn [length] in Hlen. rewrite !app_length in Hlen. cbn [length] in Hlen. rewrite length_be32 in Hlen. lia.
  - rewrite wire_bytes_array in *. apply wire_ok_array in Hok. destruct Hok as [Hc Hok].
    cbn [app wire_value]. rewrite read_value_array, <- app_assoc, (take_n_app_len (be32 (lenN ws)) _ 4), of_be_be32, HE;
      [reflexivity| |assumption..|reflexivity].
    cbn [length] in Hlen. rewrite !app_length in Hlen. rewrite length_be32 in Hlen. lia.
Qed.

Lemma step_props f : P_value f -> P_props f -> P_props (S f).
Proof.
  intros HV HP ps rest acc Hlen Hok.
  destruct ps as [|[name pw] r].
  - reflexivity.
  - cbn [wire_props_bytes wire_props_ok] in *. destruct Hok as [[Hn Hu] [Hw Hr]].
    cbn [read_props]. rewrite <- !app_assoc.
    rewrite (take_n_app_len (be16 (lenN name)) _ 2) by reflexivity.
    rewrite of_be_be16 by lia.
    destruct (lenN name =? 0) eqn:E; [lia|].
    rewrite take_n_app. rewrite Hu.
    rewrite !app_length in Hlen. rewrite length_be16 in Hlen.
    assert (Hnl : (1 <= length name)%nat) by (unfold lenN in Hn; lia).
    pose proof (wire_bytes_nonempty pw) as Hpw.
    rewrite HV; [|lia|assumption]. cbn [obind].
    cbn [wire_props_value]. apply HP; [lia|assumption].
Qed.

Lemma step_elems f : P_value f -> P_elems f -> P_elems (S f).
Proof.
  intros HV HE ws rest acc Hlen Hok Hc.
  destruct ws as [|x r].
  - cbn [map]. rewrite app_nil_r. reflexivity.
  - cbn [wire_elems_bytes wire_elems_ok] in *. destruct Hok as [Hx Hr].
    rewrite lenN_cons in *. rewrite read_array_succ, <- app_assoc. rewrite app_length in Hlen.
    pose proof (wire_bytes_nonempty x) as Hpw.
    rewrite HV; [|lia|assumption]. cbn [obind].
    rewrite HE; [|lia|assumption|lia].
    cbn [rev map]. rewrite <- app_assoc. reflexivity.
Qed.

Lemma decode_all_P f : P_value f /\ P_props f /\ P_elems f.
Proof.
  revert f. apply fuel_ind3.
  - intros w rest H. pose proof (wire_bytes_nonempty w). lia.
  - intros ps rest acc H. lia.
  - intros ws rest acc H. lia.
  - intros f HV HP HE. split; [apply step_value; assumption|]. split; [apply step_props; assumption|apply step_elems; assumption].
Qed.

Lemma decode_complete_value w rest f :
  wire_ok w -> (length (wire_bytes w) < f)%nat ->
  read_next_value f (wire_bytes w ++ rest) = Ok (Some (wire_value w), rest).
Proof. intros Hok Hf. apply (proj1 (decode_all_P f)); assumption. Qed.

Lemma read_all_complete ws : forall f acc,
  wire_elems_ok ws -> (length ws < f)%nat ->
  read_all f (wire_elems_bytes ws) acc = Ok (rev acc ++ map wire_value ws, []).
Proof.
  induction ws as [|w r IH]; intros f acc Hok Hf.
  - destruct f as [|f]; [lia|]. cbn [map]. rewrite app_nil_r. reflexivity.
  - destruct f as [|f]; [cbn [length] in Hf; lia|].
    cbn [wire_elems_bytes wire_elems_ok] in *. destruct Hok as [Hw Hr].
    cbn [read_all].
    rewrite decode_complete_value; [|assumption|rewrite app_length; lia].
    cbn [obind]. rewrite IH; [|assumption|cbn [length] in Hf; lia].
    cbn [rev map]. rewrite <- app_assoc. reflexivity.
Qed.

Lemma wire_elems_length ws : (length ws <= length (wire_elems_bytes ws))%nat.
Proof.
  induction ws as [|w r IH]; [reflexivity|]. cbn [wire_elems_bytes length]. rewrite app_length.
  pose proof (wire_bytes_nonempty w). lia.
Qed.

Lemma deserialize_rest_complete ws : wire_elems_ok ws -> deserialize_rest (wire_elems_bytes ws) = Ok (map wire_value ws, []).
Proof.
  intros Hok. apply (read_all_complete ws _ [] Hok). pose proof (wire_elems_length ws). lia.
Qed.

Theorem decode_complete ws :
  wire_elems_ok ws -> deserialize (wire_elems_bytes ws) = Ok (map wire_value ws).
Proof. intros Hok. unfold deserialize. rewrite deserialize_rest_complete by assumption. reflexivity. Qed.

(* induction on values: one statement each for values, property lists and value lists, proved together *)
Section value_ind3.
  Variables (P : value -> Prop) (Q : list (bytes * value) -> Prop) (R : list value -> Prop).
  Hypothesis Hnum : forall b, P (VNumber b).
  Hypothesis Hbool : forall b, P (VBoolean b).
  Hypothesis Hstr : forall s, P (VString s).
  Hypothesis Hnull : P VNull.
  Hypothesis Hundef : P VUndefined.
  Hypothesis Hobj : forall ps, Q ps -> P (VObject ps).
  Hypothesis Harr : forall vs, R vs -> P (VStrictArray vs).
  Hypothesis Hpnil : Q [].
  Hypothesis Hpcons : forall k x r, P x -> Q r -> Q ((k, x) :: r).
  Hypothesis Hvnil : R [].
  Hypothesis Hvcons : forall x r, P x -> R r -> R (x :: r).

  Fixpoint value_ind3_value (v : value) : P v :=
    match v with
    | VNumber b => Hnum b
    | VBoolean b => Hbool b
    | VString s => Hstr s
    | VNull => Hnull
    | VUndefined => Hundef
    | VObject ps =>
        Hobj ps ((fix go (ps : list (bytes * value)) : Q ps :=
                    match ps with
                    | [] => Hpnil
                    | (k, x) :: r => Hpcons k x r (value_ind3_value x) (go r)
                    end) ps)
    | VStrictArray vs =>
        Harr vs ((fix go (vs : list value) : R vs :=
                    match vs with
                    | [] => Hvnil
                    | x :: r => Hvcons x r (value_ind3_value x) (go r)
                    end) vs)
    end.

  Lemma value_ind3 : (forall v, P v) /\ (forall ps, Q ps) /\ (forall vs, R vs).
  Proof.
    split; [exact value_ind3_value|]. split.
    - induction ps as [|[k x] r IH]; [exact Hpnil|exact (Hpcons k x r (value_ind3_value x) IH)].
    - induction vs as [|x r IH]; [exact Hvnil|exact (Hvcons x r (value_ind3_value x) IH)].
  Qed.
End value_ind3.

Lemma value_ind2 (P : value -> Prop) :
  (forall b, P (VNumber b)) -> (forall b, P (VBoolean b)) -> (forall s, P (VString s)) ->
  (forall ps, Forall (fun p => P (snd p)) ps -> P (VObject ps)) -> (forall vs, Forall P vs -> P (VStrictArray vs)) ->
  P VNull -> P VUndefined -> forall v, P v.
Proof. intros. apply (value_ind3 P (Forall (fun p => P (snd p))) (Forall P)); auto. Qed.

Lemma encode_value_object ps :
  encode_value (VObject ps) =
  obind (encode_props ps) (fun b => Ok (OBJECT_MARKER :: b ++ be16 UTF_8_EMPTY_MARKER ++ [OBJECT_END_MARKER])).
Proof. reflexivity. Qed.
Lemma encode_value_array vs :
  encode_value (VStrictArray vs) =
  obind (encode_values vs) (fun b => Ok (STRICT_ARRAY_MARKER :: be32 (lenN vs mod two32) ++ b)).
Proof. reflexivity. Qed.
Lemma embed_object ps : embed (VObject ps) = WObject (embed_props ps).
Proof. reflexivity. Qed.
Lemma wf_value_object ps : wf_value (VObject ps) <-> NoDup (map fst ps) /\ wf_props ps.
Proof. reflexivity. Qed.
Lemma wf_value_array vs : wf_value (VStrictArray vs) <-> lenN vs < 4294967296 /\ wf_values vs.
Proof. reflexivity. Qed.
Lemma expressible_object ps : expressible (VObject ps) = expressible_props ps.
Proof. reflexivity. Qed.
Lemma expressible_array vs : expressible (VStrictArray vs) = expressible_all vs.
Proof. reflexivity. Qed.

Definition enc_spec (v : value) : Prop :=
  wf_value v ->
  (expressible v = true -> encode_value v = Ok (wire_bytes (embed v)) /\ wire_ok (embed v)) /\
  (expressible v = false -> exists e, encode_value v = Err e).

(* what enc_spec says of encode_value, for any encoder: where e holds it writes w, and w is conformant; elsewhere it fails *)
Definition emits (e : bool) (enc : outcome bytes enc_err) (w : bytes) (ok : Prop) : Prop :=
  (e = true -> enc = Ok w /\ ok) /\ (e = false -> exists err, enc = Err err).

Lemma emits_Ok {w} {ok : Prop} : ok -> emits true (Ok w) w ok.
Proof. intros H. split; [intros _; split; [reflexivity|exact H]|discriminate]. Qed.

Lemma emits_Err {err w ok} : emits false (Err err) w ok.
Proof. split; [discriminate|intros _; exists err; reflexivity]. Qed.

Lemma emits_map (g : bytes -> bytes) {e enc w} {ok ok' : Prop} :
  emits e enc w ok -> (ok -> ok') -> emits e (obind enc (fun b => Ok (g b))) (g w) ok'.
Proof.
  intros [H1 H2] Hok. destruct e.
  - destruct (H1 eq_refl) as [-> O]. apply emits_Ok, Hok, O.
  - destruct (H2 eq_refl) as [err ->]. apply emits_Err.
Qed.

Lemma emits_bind (g : bytes -> bytes -> bytes) {e1 e2 enc1 enc2 w1 w2} {ok1 ok2 ok : Prop} :
  emits e1 enc1 w1 ok1 -> emits e2 enc2 w2 ok2 -> (ok1 -> ok2 -> ok) ->
  emits (e1 && e2) (obind enc1 (fun b1 => obind enc2 (fun b2 => Ok (g b1 b2)))) (g w1 w2) ok.
Proof.
  intros [A1 A2] B Hok. destruct e1.
  - destruct (A1 eq_refl) as [-> O1]. exact (emits_map (g w1) B (Hok O1)).
  - destruct (A2 eq_refl) as [err ->]. apply emits_Err.
Qed.

Lemma lenN_map {A B} (f : A -> B) l : lenN (map f l) = lenN l.
Proof. unfold lenN. rewrite map_length. reflexivity. Qed.

Lemma encode_wire_all :
  (forall v, enc_spec v) /\
  (forall ps, wf_props ps ->
     emits (expressible_props ps) (encode_props ps) (wire_props_bytes (embed_props ps)) (wire_props_ok (embed_props ps))) /\
  (forall vs, wf_values vs ->
     emits (expressible_all vs) (encode_values vs) (wire_elems_bytes (map embed vs)) (wire_elems_ok (map embed vs))).
Proof.
  apply value_ind3.
  - intros b Hwf. exact (emits_Ok Hwf).
  - intros b _. apply emits_Ok. destruct b; reflexivity.
  - intros s Hu. cbn [expressible encode_value embed wire_bytes wire_ok]. unfold u16_max. rewrite N.ltb_antisym.
    destruct (lenN s <=? 65535) eqn:E; [apply emits_Ok; split; [lia|exact Hu]|apply emits_Err].
  - intros _. exact (emits_Ok I).
  - intros _. exact (emits_Ok I).
  - intros ps IH Hwf. apply wf_value_object in Hwf.
    rewrite expressible_object, encode_value_object, embed_object, wire_bytes_object.
    exact (emits_map (fun b => OBJECT_MARKER :: b ++ be16 UTF_8_EMPTY_MARKER ++ [OBJECT_END_MARKER]) (IH (proj2 Hwf)) (proj2 (wire_ok_object _))).
  - intros vs IH Hwf. apply wf_value_array in Hwf. destruct Hwf as [Hc Hwf].
    rewrite expressible_array, encode_value_array, (N.mod_small (lenN vs) two32 Hc). cbn [embed]. rewrite wire_bytes_array, lenN_map.
    apply (emits_map (fun b => STRICT_ARRAY_MARKER :: be32 (lenN vs) ++ b) (IH Hwf)). intros Hok. apply wire_ok_array. rewrite lenN_map. split; assumption.
  - intros _. exact (emits_Ok I).
  - intros k x r Hx Hr [Hu [Hwx Hwr]].
    cbn [expressible_props encode_props embed_props wire_props_bytes wire_props_ok]. unfold u16_max. rewrite N.ltb_antisym.
    destruct (lenN k <=? 65535) eqn:E1; [|rewrite andb_false_r; apply emits_Err].
    destruct (lenN k =? 0) eqn:E2; [replace (1 <=? lenN k) with false by lia; apply emits_Err|].
    replace (1 <=? lenN k) with true by lia.
    apply (emits_bind (fun bv br => be16 (lenN k) ++ k ++ bv ++ br) (Hx Hwx) (Hr Hwr)).
    intros O1 O2. repeat split; try assumption; lia.
  - intros _. exact (emits_Ok I).
  - intros x r Hx Hr [Hwx Hwr]. exact (emits_bind (@app N) (Hx Hwx) (Hr Hwr) (@conj _ _)).
Qed.

Lemma encode_wire v : enc_spec v.
Proof. apply encode_wire_all. Qed.

Lemma encode_values_wire vs : wf_values vs ->
  emits (expressible_all vs) (encode_values vs) (wire_elems_bytes (map embed vs)) (wire_elems_ok (map embed vs)).
Proof. apply encode_wire_all. Qed.

Lemma map_insert_fresh k v acc : ~ In k (map fst acc) -> map_insert k v acc = acc ++ [(k, v)].
Proof.
  induction acc as [|[k' v'] r IH]; intros H; [reflexivity|].
  cbn [map_insert]. destruct (list_eq_dec N.eq_dec k k') as [->|Hne].
  - exfalso. apply H. left. reflexivity.
  - cbn [app]. rewrite IH; [reflexivity|]. intros Hin. apply H. right. exact Hin.
Qed.

Lemma embed_all :
  (forall v, wf_value v -> wire_value (embed v) = v) /\
  (forall ps, wf_props ps -> forall acc, NoDup (map fst acc ++ map fst ps) -> wire_props_value (embed_props ps) acc = acc ++ ps) /\
  (forall vs, wf_values vs -> map wire_value (map embed vs) = vs).
Proof.
  apply value_ind3; try reflexivity.
  - intros [] _; reflexivity.
  - intros ps IH Hwf. apply wf_value_object in Hwf.
    rewrite embed_object, wire_value_object, (IH (proj2 Hwf) [] (proj1 Hwf)). reflexivity.
  - intros vs IH Hwf. apply wf_value_array in Hwf. cbn [embed wire_value]. rewrite (IH (proj2 Hwf)). reflexivity.
  - intros _ acc _. symmetry. apply app_nil_r.
  - intros k x r Hx Hr [_ [Hwx Hwr]] acc Hnd. cbn [embed_props wire_props_value map fst] in *.
    rewrite (Hx Hwx), map_insert_fresh, (Hr Hwr), <- app_assoc; [reflexivity| |].
    + rewrite map_app, <- app_assoc. exact Hnd.
    + intros Hin. apply (NoDup_remove_2 _ _ _ Hnd), in_or_app. left. exact Hin.
  - intros x r Hx Hr [Hwx Hwr]. cbn [map]. rewrite (Hx Hwx), (Hr Hwr). reflexivity.
Qed.

Lemma embed_values vs : wf_values vs -> map wire_value (map embed vs) = vs.
Proof. apply embed_all. Qed.

Lemma emits_Ok_inv e b w ok : emits e (Ok b) w ok -> b = w /\ ok.
Proof.
  intros [H1 H2]. destruct e.
  - destruct (H1 eq_refl) as [[= ->] O]. split; [reflexivity|exact O].
  - destruct (H2 eq_refl) as [err [=]].
Qed.

Lemma serialize_wire vs bs : wf_values vs -> serialize vs = Ok bs ->
  bs = wire_elems_bytes (map embed vs) /\ wire_elems_ok (map embed vs).
Proof. intros Hwf E. apply (emits_Ok_inv (expressible_all vs)). rewrite <- E. exact (encode_values_wire vs Hwf). Qed.

Lemma roundtrip_ok vs bs : wf_values vs -> serialize vs = Ok bs -> deserialize_rest bs = Ok (vs, []).
Proof.
  intros Hwf E. destruct (serialize_wire vs bs Hwf E) as [-> Hok].
  rewrite deserialize_rest_complete, embed_values by assumption. reflexivity.
Qed.

(* C04: encode then decode is the identity; an error exactly for what AMF0 cannot express *)
Theorem roundtrip vs : wf_values vs ->
  (expressible_all vs = true ->
     exists bs, serialize vs = Ok bs /\ deserialize_rest bs = Ok (vs, [])) /\
  (expressible_all vs = false -> exists e, serialize vs = Err e).
Proof.
  intros Hwf. destruct (encode_values_wire vs Hwf) as [H1 H2]. split; [|exact H2].
  intros H. destruct (H1 H) as [E _]. eexists. split; [exact E|exact (roundtrip_ok _ _ Hwf E)].
Qed.

(* C12: the encoder is the reference encoder *)
Fixpoint ref_encode_props (ps : list (bytes * value)) : option bytes :=
  match ps with
  | [] => Some []
  | (name, pv) :: rest =>
      if (1 <=? lenN name) && (lenN name <=? 65535) then
        match ref_encode pv, ref_encode_props rest with
        | Some bv, Some br => Some (be16 (lenN name) ++ name ++ bv ++ br)
        | _, _ => None
        end
      else None
  end.

Lemma ref_encode_object ps :
  ref_encode (VObject ps) = match ref_encode_props ps with Some b => Some (3 :: b ++ [0; 0; 9]) | None => None end.
Proof. reflexivity. Qed.
Lemma ref_encode_array vs :
  ref_encode (VStrictArray vs) = match ref_encode_all vs with Some b => Some (10 :: be32 (lenN vs) ++ b) | None => None end.
Proof. reflexivity. Qed.

Lemma ref_encode_wire_all :
  (forall v, ref_encode v = if expressible v then Some (wire_bytes (embed v)) else None) /\
  (forall ps, ref_encode_props ps = if expressible_props ps then Some (wire_props_bytes (embed_props ps)) else None) /\
  (forall vs, ref_encode_all vs = if expressible_all vs then Some (wire_elems_bytes (map embed vs)) else None).
Proof.
  apply value_ind3; try reflexivity.
  - intros ps IH. rewrite ref_encode_object, IH, expressible_object, embed_object, wire_bytes_object.
    destruct (expressible_props ps); reflexivity.
  - intros vs IH. rewrite ref_encode_array, IH, expressible_array. cbn [embed]. rewrite wire_bytes_array, lenN_map.
    destruct (expressible_all vs); reflexivity.
  - intros k x r Hx Hr. cbn [ref_encode_props expressible_props embed_props wire_props_bytes]. rewrite Hx, Hr.
    destruct ((1 <=? lenN k) && (lenN k <=? 65535)), (expressible x), (expressible_props r); reflexivity.
  - intros x r Hx Hr. cbn [ref_encode_all expressible_all map wire_elems_bytes]. rewrite Hx, Hr.
    destruct (expressible x), (expressible_all r); reflexivity.
Qed.

Theorem encode_is_spec v : wf_value v ->
  match ref_encode v with
  | Some b => encode_value v = Ok b
  | None => exists e, encode_value v = Err e
  end.
Proof.
  intros Hwf. rewrite (proj1 ref_encode_wire_all). destruct (encode_wire v Hwf) as [H1 H2].
  destruct (expressible v); [exact (proj1 (H1 eq_refl))|exact (H2 eq_refl)].
Qed.

Definition known_marker (m : N) : bool :=
  (m =? 0) || (m =? 1) || (m =? 2) || (m =? 3) || (m =? 5) || (m =? 6) || (m =? 8) || (m =? 9) || (m =? 10).

Lemma unknown_marker m r f : known_marker m = false -> read_next_value (S f) (m :: r) = Err (UnknownMarker m).
Proof.
  unfold known_marker. intros H.
  repeat (apply orb_false_elim in H; destruct H as [H ?]).
  cbn [read_next_value].
  unfold OBJECT_END_MARKER, BOOLEAN_MARKER, NULL_MARKER, UNDEFINED_MARKER, NUMBER_MARKER, OBJECT_MARKER, ECMA_ARRAY_MARKER,
    STRING_MARKER, STRICT_ARRAY_MARKER.
  repeat match goal with E : (m =? _) = false |- _ => rewrite E; clear E end. reflexivity.
Qed.

Lemma unknown_marker_toplevel m r : known_marker m = false -> deserialize (m :: r) = Err (UnknownMarker m).
Proof.
  intros H. unfold deserialize, deserialize_rest. cbn [read_all]. rewrite unknown_marker by assumption. reflexivity.
Qed.
