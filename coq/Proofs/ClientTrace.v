(* C18 for the client session: the packets a successful client call returns are, in order, exactly the outputs of the serializer
   operations performed by that call.  Same development as SessionTrace.v, but with no condition on the input bytes: the client
   sends on stream 0 or on the stream whose number f64_to_u32 gave it (cinv), never on one read off a chunk header. *)
From Coq Require Import ZArith Lia ZifyN ZifyBool ZifyNat.
From RML Require Import Model.Base Model.Time Model.Chunk Model.ChunkSer Model.ChunkDe Model.Amf0 Model.Messages Model.Float Model.SessionCommon
  Model.Server Model.Client Gen.Consts Spec.ChunkSpec Proofs.BaseProofs Proofs.ChunkSerProofs Proofs.ConfigProofs
  Proofs.InteropProofs Proofs.SessionSend Proofs.ClientProofs Proofs.SessionFrame Proofs.SessionTrace.
Local Open Scope N_scope.

Fixpoint cpkts (rs : list cresult) : list (bytes * bool) :=
  match rs with
  | [] => []
  | CPacket b d :: r => (b, d) :: cpkts r
  | _ :: r => cpkts r
  end.

Lemma cpkts_app a b : cpkts (a ++ b) = cpkts a ++ cpkts b.
Proof. induction a as [|x a IH]; [reflexivity|]. destruct x; cbn [app cpkts]; rewrite IH; reflexivity. Qed.

Lemma cpkts_single_event e : cpkts [CEvent e] = [].
Proof. reflexivity. Qed.

Lemma cevents_only_cpkts rs : cevents_only rs = true -> cpkts rs = [].
Proof. induction rs as [|[b d|e|m] r IH]; cbn [cevents_only forallb cpkts andb]; [reflexivity|discriminate|exact IH..]. Qed.

Definition ctraced (ser0 : sstate) (c : ccall) : Prop :=
  match snd c with COk rs => emits ser0 (cpkts rs) (cl_ser (fst c)) | _ => True end.

Lemma crun_traced ser0 plan : forall c acc, Forall item_ok plan -> emits ser0 (cpkts acc) (cl_ser c) -> ctraced ser0 (crun c plan acc).
Proof.
  induction plan as [|[m ts sid f d|n ts|e] r IH]; intros c acc Hp Ha; cbn [crun]; [exact Ha|..]; inversion Hp as [|? ? Hi Hr]; subst.
  - destruct Hi as [Hm [Hts Hsid]]. unfold csending.
    destruct (send_message (cl_ser c) m ts sid f d) as [[b ser']|e|x|] eqn:E; try exact I.
    apply (IH _ _ Hr). rewrite cpkts_app. apply (emits_app _ _ _ _ _ Ha), (send_message_emits _ _ _ _ _ _ _ _ Hm Hts Hsid E).
  - destruct (ChunkSer.set_max_chunk_size (cl_ser c) n ts) as [[b ser']|e|x|] eqn:E; try exact I.
    apply (IH _ _ Hr). rewrite cpkts_app. apply (emits_app _ _ _ _ _ Ha), (set_max_emits _ _ _ _ _ Hi E).
  - apply (IH _ _ Hr). rewrite cpkts_app. apply (emits_app _ _ _ _ _ Ha), emits_nil.
Qed.

Lemma chandled_traced M (P : N -> Prop) clock c c' ser0 : clock < 4294967296 -> (forall i, P i -> i < 4294967296) ->
  chandled M P clock c c' -> (forall c1 c2, M c1 c2 -> cl_ser c1 = ser0) -> ctraced ser0 c.
Proof.
  intros Hc HP [c1 c2 e H1|c1 c2 plan acc H1 H2 H3] HM; [exact I|]. apply crun_traced.
  - apply (Forall_impl _ (fun it => sends_at_ok clock P it Hc HP) H3).
  - rewrite (HM c1 c2 H1), (cevents_only_cpkts _ H2). apply emits_nil.
Qed.

(* the stream id the client holds is a u32 *)
Definition cinv (c : client) : Prop := forall sid, cl_stream c = Some sid -> sid < 4294967296.

Lemma cl_moved_cinv c c' c1 c2 : cl_moved c c' c1 c2 -> cinv c -> cinv c1.
Proof.
  induction 1 as [|c0 c0' st _ IH|c0 c0' t n _ IH|c0 c0' a _ IH|c0 c0' x _ _|c0 c0' _ _]; intros Hi; try exact (IH Hi); [exact Hi| |];
    intros sid E; [injection E as <-; apply f64_to_u32_bound|discriminate E].
Qed.

Lemma ch_message_ok c p clock : clock < 4294967296 -> cinv c ->
  ctraced (cl_ser c) (ch_message c p clock) /\ cinv (fst (ch_message c p clock)).
Proof.
  intros Hc Hi. pose proof (ch_message_handled1 c p clock) as Hh. split.
  - apply (chandled_traced _ _ _ _ _ _ Hc (fun i Hlt => Hlt) Hh), cl_moves_ser.
  - apply (chandled_lift _ _ _ cinv _ _ (fun _ _ Hx => Hx) Hh). intros c1 c2 [? ? Hm|n d d2 E _|n]; [exact (cl_moved_cinv _ _ _ _ Hm Hi)|exact Hi..].
Qed.

Lemma ch_loop_traced clock fuel : forall c input acc ser0,
  clock < 4294967296 -> cinv c -> emits ser0 (cpkts acc) (cl_ser c) ->
  match ch_loop fuel c input clock acc with
  | (c', COk rs) => emits ser0 (cpkts rs) (cl_ser c') /\ cinv c'
  | _ => True
  end.
Proof.
  induction fuel as [|f IH]; intros c input acc ser0 Hc Hi Hp; cbn [ch_loop]; [exact I|].
  destruct (get_next_message (cl_de c) input) as [d res]. destruct res as [p| |e|]; [| |exact I|exact I].
  - pose proof (ch_message_ok (cupd_de c d) p clock Hc Hi) as [Ht Hv].
    destruct (ch_message (cupd_de c d) p clock) as [c1 r]. unfold ctraced in Ht. cbn [fst snd] in *.
    destruct r as [rs|e|]; [|exact I|exact I].
    apply (IH c1 [] (acc ++ rs) ser0 Hc Hv). rewrite cpkts_app. apply (emits_app ser0 _ _ _ _ Hp Ht).
  - split; [exact Hp|exact Hi].
Qed.

Theorem client_handle_input_traced c input clock : clock < 4294967296 -> cinv c -> ser_ok (cl_ser c) ->
  match client_handle_input c input clock with
  | (c', COk rs) => emits (cl_ser c) (cpkts rs) (cl_ser c') /\ cinv c'
  | _ => True
  end.
Proof.
  intros Hc Hi Hs. destruct (client_handle_input_loop c input clock Hs) as [ser0 [acc0 [-> [_ Hacc]]]].
  apply (ch_loop_traced clock); [exact Hc|exact Hi|]. cbn [cl_ser cupd_ack cupd_ser].
  destruct (snd (ack_step (cl_ack c) (lenN input))) as [n|]; [destruct Hacc as [b [E ->]]|destruct Hacc as [-> ->]; apply emits_nil].
  apply (send_message_emits _ (MAcknowledgement n) clock 0 false false b ser0 eq_refl Hc ltac:(lia) E).
Qed.

Definition cop_ok (op : cop) : Prop :=
  match op with
  | CopInput _ k | CopConnect _ k | CopPlay _ k | CopPublish _ _ k | CopStopPlay k | CopStopPublish k | CopPing k | CopMetadata _ k => k < 4294967296
  | CopMedia _ _ ts _ => ts < 4294967296
  end.

Theorem client_step_traced c op : cop_ok op -> cinv c -> ser_ok (cl_ser c) ->
  match client_step c op with
  | (c', COk rs) => emits (cl_ser c) (cpkts rs) (cl_ser c') /\ cinv c'
  | _ => True
  end.
Proof.
  intros Hop Hi Hs. destruct (is_cinput op) eqn:Eo.
  - destruct op; try discriminate Eo. apply client_handle_input_traced; assumption.
  - pose proof (client_call_handled c op Eo) as Hh.
    assert (Hc : cop_time op < 4294967296) by (destruct op; exact Hop).
    assert (HP : forall i, i = 0 \/ cl_stream c = Some i -> i < 4294967296) by (intros i [->|E]; [reflexivity|exact (Hi i E)]).
    pose proof (chandled_traced _ _ _ _ _ (cl_ser c) Hc HP Hh (fun c1 c2 Hm => proj1 (cl_moved_io c c c1 c2 Hm))) as Ht.
    pose proof (chandled_lift _ _ _ cinv _ _ (fun _ _ Hx => Hx) Hh (fun c1 c2 Hm => cl_moved_cinv c c c1 c2 Hm Hi)) as Hv.
    unfold ctraced in Ht. destruct (client_step c op) as [c' r]. destruct r; try exact I. split; assumption.
Qed.

Fixpoint client_trace (c : client) (ops : list cop) : option (client * list cresult) :=
  match ops with
  | [] => Some (c, [])
  | op :: r =>
    match client_step c op with
    | (c', COk rs) => match client_trace c' r with Some (c2, rs2) => Some (c2, rs ++ rs2) | None => None end
    | _ => None
    end
  end.

Lemma client_trace_produced ops : forall c c' rs, Forall cop_ok ops -> cinv c -> ser_ok (cl_ser c) ->
  client_trace c ops = Some (c', rs) -> emits (cl_ser c) (cpkts rs) (cl_ser c').
Proof.
  induction ops as [|op r IH]; intros c c' rs Hok Hi Hs H; cbn [client_trace] in H.
  - injection H as <- <-. apply emits_nil.
  - inversion Hok as [|? ? Ho Hr]; subst.
    pose proof (client_step_traced c op Ho Hi Hs) as Ht. pose proof (client_step_good c op Hs) as [_ Hs1].
    destruct (client_step c op) as [c1 r1]. cbn [fst] in Hs1. destruct r1 as [rs1| |]; try discriminate. destruct Ht as [Hp Hi1].
    destruct (client_trace c1 r) as [[c2 rs2]|] eqn:E; [|discriminate]. injection H as <- <-.
    rewrite cpkts_app. apply (emits_app _ _ _ _ _ Hp). apply (IH c1 c2 rs2 Hr Hi1 Hs1 E).
Qed.

(* C18 for the client: everything a client session returned in a history of successful calls, with any subset of the droppable
   packets withheld, is read by the specification decoder as exactly the messages of the surviving packets *)
Theorem client_history_decodable cfg ops c' rs keep :
  Forall cop_ok ops -> client_trace (client_new cfg) ops = Some (c', rs) ->
  keep_flags_ok keep (map snd (cpkts rs)) ->
  exists sent, length sent = length (cpkts rs) /\
    sdec (concat (select keep (map fst (cpkts rs)))) = SOk (select keep sent).
Proof.
  intros Hok Htr Hkeep.
  assert (Hi0 : cinv (client_new cfg)) by (intros sid E; discriminate E).
  apply (emits_decodable _ (cl_ser c') keep (client_trace_produced ops (client_new cfg) c' rs Hok Hi0 (client_new_ok cfg) Htr) Hkeep).
Qed.
