(* The staged chunk parser: each stage depends only on a prefix of the buffer (stage_ext: "not enough bytes" is a no-op,
   a successful stage is unaffected by bytes that arrive later), and the stage loop always terminates within its fuel
   (the measure mu), so a call is a function G of the state with the input appended, which unfolds stage by stage
   without fuel (G_unfold).  Consequently the messages returned do not depend on how the byte stream is split across
   calls (C15, C03, C01). *)
From Coq Require Import ZArith Lia ZifyN ZifyBool ZifyNat.
From RML Require Import Model.Base Model.Chunk Model.ChunkDe Proofs.BaseProofs Proofs.ChunkDeStages.
Local Open Scope N_scope.

Definition ext (st : dstate) (x : bytes) : dstate := set_buf st (d_buf st ++ x).

Lemma take_n_ext b n a r x : take_n b n = Some (a, r) -> take_n (b ++ x) n = Some (a, r ++ x).
Proof.
  intros H. destruct (take_n_length b n a r H) as [-> <-]. rewrite <- app_assoc. apply take_n_app.
Qed.

Lemma get_csid_ext b c n x : get_csid b = Some (c, n) -> get_csid (b ++ x) = Some (c, n) /\ drop_n n (b ++ x) = drop_n n b ++ x /\ 1 <= n /\ n <= lenN b.
Proof.
  intros H. destruct (get_csid_reads b c n H) as [b0 [a [r [-> [Hl Hall]]]]].
  rewrite <- app_assoc, Hall, (drop_n_app _ (r ++ x) n Hl), (drop_n_app _ r n Hl), lenN_app.
  pose proof (lenN_cons b0 a). repeat split; lia.
Qed.

Lemma stage_ext st x :
  match run_stage st with
  | Ok (Success, st', om) => run_stage (ext st x) = Ok (Success, ext st' x, om)
  | Ok (NotEnoughBytes, st', om) => st' = st /\ om = None
  | Err e => run_stage (ext st x) = Err e
  | Panic _ | OutOfFuel => False
  end.
Proof.
  destruct (stage_eq_dec (d_stage st) StCsid) as [Es|Es].
  - rewrite (header_reader st Es), (header_reader (ext st x) Es). cbn [ext set_buf d_buf d_prev d_max d_partial].
    destruct (get_csid (d_buf st)) as [[c n]|] eqn:Ec; [|split; reflexivity].
    destruct (get_csid_reads _ c n Ec) as [b0 [a [r [-> [Hl Hall]]]]].
    rewrite <- app_assoc, Hall, (drop_n_app _ (r ++ x) n Hl), (drop_n_app _ r n Hl). cbn [app hd].
    destruct (header_start _ c (d_prev st)) as [[h p]|]; reflexivity.
  - (* the stage asks for the same bytes and finds them at the same place *)
    rewrite (run_stage_reader st Es), (run_stage_reader (ext st x) Es).
    change (overrun (ext st x)) with (overrun st). change (need (ext st x)) with (need st).
    destruct (overrun st); [reflexivity|]. cbn [ext d_buf set_buf].
    destruct (take_n (d_buf st) (need st)) as [[b r]|] eqn:E; [|split; reflexivity].
    rewrite (take_n_ext _ _ _ _ x E). reflexivity.
Qed.

Lemma stage_blocked st st' om : run_stage st = Ok (NotEnoughBytes, st', om) -> st' = st /\ om = None.
Proof. intros H. pose proof (stage_ext st []) as Hx. rewrite H in Hx. exact Hx. Qed.

(* the loop's measure: every stage but the header stage lowers the rank; the header stage raises it by six and takes
   at least one byte off the buffer, which counts seven *)
Definition rank (s : stage) : nat :=
  match s with
  | StCsid => 0 | StMessagePayload => 1 | StExtendedTimestamp => 2 | StMessageStreamId => 3
  | StMessageTypeId => 4 | StMessageLength => 5 | StInitialTimestamp => 6
  end%nat.
Definition mu (st : dstate) : nat := (7 * length (d_buf st) + rank (d_stage st))%nat.

Lemma stage_progress st st' om : run_stage st = Ok (Success, st', om) -> (mu st' < mu st)%nat.
Proof.
  intros H. destruct (stage_consumes _ _ _ H) as [b [Hb [Hs [Hne _]]]]. unfold mu. rewrite Hb, Hs, app_length.
  destruct (d_stage st); cbn [next_stage rank]; try lia.
  destruct b; [contradiction Hne; reflexivity|cbn [length]; lia].
Qed.

Lemma loop_adequate fuel : forall st, (mu st < fuel)%nat -> snd (stage_loop fuel st) <> DOutOfFuel.
Proof.
  induction fuel as [|f IH]; intros st H; [lia|]. cbn [stage_loop].
  pose proof (stage_ext st []) as Hx. pose proof (stage_progress st) as Hp.
  destruct (run_stage st) as [[[r st'] om]|e|x|]; try contradiction; [|cbn; discriminate].
  destruct om as [m|]; [cbn; discriminate|]. destruct r; [|cbn; discriminate].
  apply IH. specialize (Hp st' None eq_refl). lia.
Qed.

Theorem get_next_message_terminates st input : snd (get_next_message st input) <> DOutOfFuel.
Proof.
  unfold get_next_message. apply loop_adequate. unfold mu. cbn [d_buf d_stage set_buf].
  destruct (d_stage st); cbn [rank]; lia.
Qed.

Lemma loop_fuel_any f1 : forall f2 st, (mu st < f1)%nat -> (mu st < f2)%nat -> stage_loop f1 st = stage_loop f2 st.
Proof.
  induction f1 as [|f1 IH]; intros [|f2] st H1 H2; try lia. cbn [stage_loop].
  destruct (run_stage st) as [[[r st'] om]|e|x|] eqn:Er; try reflexivity.
  destruct om; [reflexivity|]. destruct r; [|reflexivity]. apply stage_progress in Er. apply IH; lia.
Qed.

Definition G (st : dstate) : dstate * de_result := stage_loop (S (mu st)) st.

Lemma ext_nil st : ext st [] = st.
Proof. destruct st. unfold ext, set_buf. cbn. rewrite app_nil_r. reflexivity. Qed.

Lemma ext_ext st a b : ext (ext st a) b = ext st (a ++ b).
Proof. destruct st. unfold ext, set_buf. cbn. rewrite app_assoc. reflexivity. Qed.

Lemma gnm_G st input : get_next_message st input = G (ext st input).
Proof.
  unfold get_next_message, G. fold (ext st input). apply loop_fuel_any; [|lia].
  unfold mu. destruct (d_stage (ext st input)); cbn [rank]; lia.
Qed.

Lemma G_total st : snd (G st) <> DOutOfFuel.
Proof. unfold G. apply loop_adequate. lia. Qed.

Lemma G_unfold st :
  G st = match run_stage st with
         | Err e => (st, DErr e)
         | Panic _ | OutOfFuel => (st, DOutOfFuel)
         | Ok (r, st', om) =>
           match om with
           | Some m => (st', DMsg m)
           | None => match r with NotEnoughBytes => (st', DNone) | Success => G st' end
           end
         end.
Proof.
  unfold G at 1. cbn [stage_loop]. destruct (run_stage st) as [[[r st'] om]|e|y|] eqn:Er; try reflexivity.
  destruct om; [reflexivity|]. destruct r; [|reflexivity]. apply stage_progress in Er. apply loop_fuel_any; lia.
Qed.

Lemma G_blocked st : run_stage st = Ok (NotEnoughBytes, st, None) -> G st = (st, DNone).
Proof. intros H. rewrite G_unfold, H. reflexivity. Qed.

Lemma G_ext st x :
  match G st with
  | (st', DMsg m) => G (ext st x) = (ext st' x, DMsg m)
  | (st', DErr e) => G (ext st x) = (ext st' x, DErr e)
  | (st', DNone) => G (ext st x) = G (ext st' x) /\ run_stage st' = Ok (NotEnoughBytes, st', None)
  | (_, DOutOfFuel) => False
  end.
Proof.
  remember (mu st) as n eqn:En. revert st En. induction n as [n IH] using lt_wf_ind. intros st En.
  pose proof (stage_ext st x) as Hx. rewrite (G_unfold st), (G_unfold (ext st x)).
  destruct (run_stage st) as [[[r st1] om]|e|y|] eqn:Er; try contradiction; [|rewrite Hx; reflexivity].
  destruct r.
  - rewrite Hx. destruct om as [m|]; [reflexivity|]. apply stage_progress in Er. apply (IH (mu st1)); [lia|reflexivity].
  - destruct Hx as [-> ->]. split; [symmetry; apply G_unfold|exact Er].
Qed.

(* the driving loop as a relation, without fuel *)
Inductive drains : dstate -> list msg -> dstate -> list msg -> option drive_err -> Prop :=
| dr_none s s' acc : get_next_message s [] = (s', DNone) -> drains s acc s' acc None
| dr_err s s' acc e : get_next_message s [] = (s', DErr e) -> drains s acc s' acc (Some (DrvDe e))
| dr_msg s s1 s2 m acc s' ms r :
    get_next_message s [] = (s1, DMsg m) -> driver_apply s1 m = Ok s2 -> drains s2 (acc ++ [m]) s' ms r -> drains s acc s' ms r
| dr_bad s s1 m acc e :
    get_next_message s [] = (s1, DMsg m) -> driver_apply s1 m = Err e -> drains s acc s1 (acc ++ [m]) (Some DrvBadChunkSize).

(* feeding pieces one call (plus draining) at a time *)
Inductive feeds : dstate -> list bytes -> list msg -> dstate -> list msg -> option drive_err -> Prop :=
| fd_nil s acc : feeds s [] acc s acc None
| fd_ok s p r acc s1 ms1 s' ms res :
    drains (ext s p) acc s1 ms1 None -> feeds s1 r ms1 s' ms res -> feeds s (p :: r) acc s' ms res
| fd_err s p r acc s1 ms1 e :
    drains (ext s p) acc s1 ms1 (Some e) -> feeds s (p :: r) acc s1 ms1 (Some e).

Lemma gnm_nil st : get_next_message st [] = G st.
Proof. rewrite gnm_G, ext_nil. reflexivity. Qed.

(* Set Chunk Size changes the chunk size and nothing else, and what the driving loop does with a message is decided
   by the message alone: nothing, a new chunk size, or a refusal. *)
Definition with_max (st : dstate) (n : N) : dstate :=
  {| d_max := n; d_fmt := d_fmt st; d_cur := d_cur st; d_stage := d_stage st; d_buf := d_buf st; d_prev := d_prev st;
     d_partial := d_partial st |}.

Lemma driver_apply_spec m :
  (forall s, driver_apply s m = Ok s) \/ (exists n, forall s, driver_apply s m = Ok (with_max s n)) \/
  (forall s, driver_apply s m = Err DrvBadChunkSize).
Proof.
  unfold driver_apply, de_set_max_chunk_size. destruct (m_tid m =? 1); [right|left; reflexivity].
  destruct (take_n (m_data m) 4) as [[b r]|]; [|right; reflexivity].
  destruct ((of_be b =? 0) || (2147483647 <? of_be b)); [right; reflexivity|left; exists (of_be b); reflexivity].
Qed.

Lemma driver_apply_ext s m x : driver_apply (ext s x) m = match driver_apply s m with Ok s2 => Ok (ext s2 x) | o => o end.
Proof. destruct (driver_apply_spec m) as [H|[[n H]|H]]; rewrite !H; reflexivity. Qed.

Lemma drains_step s acc s' ms r : drains s acc s' ms r <->
  match G s with
  | (s1, DNone) => s' = s1 /\ ms = acc /\ r = None
  | (s1, DErr e) => s' = s1 /\ ms = acc /\ r = Some (DrvDe e)
  | (s1, DMsg m) =>
    match driver_apply s1 m with
    | Ok s2 => drains s2 (acc ++ [m]) s' ms r
    | _ => s' = s1 /\ ms = acc ++ [m] /\ r = Some DrvBadChunkSize
    end
  | (_, DOutOfFuel) => False
  end.
Proof.
  rewrite <- gnm_nil. split.
  - intros D. destruct D as [s s' acc Hg|s s' acc e Hg|s s1 s2 m acc s' ms r Hg Hd D|s s1 m acc e Hg Hd]; rewrite Hg, ?Hd; auto.
  - pose proof (get_next_message_terminates s []) as Ht. destruct (get_next_message s []) as [s1 [m| |e|]] eqn:Hg.
    + destruct (driver_apply_spec m) as [H|[[n H]|H]]; rewrite H; [intros D; eapply dr_msg; [exact Hg|apply H|exact D]..|].
      intros [-> [-> ->]]. eapply dr_bad; [exact Hg|apply H].
    + intros [-> [-> ->]]. apply dr_none. exact Hg.
    + intros [-> [-> ->]]. apply dr_err. exact Hg.
    + contradiction.
Qed.

Lemma drains_G_eq a b acc s' ms r : G a = G b -> drains b acc s' ms r -> drains a acc s' ms r.
Proof. intros HG D. apply drains_step. rewrite HG. apply drains_step. exact D. Qed.

Lemma drains_ext s acc s' ms r x : drains s acc s' ms r ->
  match r with
  | None => forall s'' ms'' r2, drains (ext s' x) ms s'' ms'' r2 -> drains (ext s x) acc s'' ms'' r2
  | Some e => drains (ext s x) acc (ext s' x) ms (Some e)
  end.
Proof.
  intros D. induction D as [s s' acc Hg|s s' acc e Hg|s s1 s2 m acc s' ms r Hg Hd D IH|s s1 m acc e Hg Hd];
    rewrite gnm_nil in Hg; pose proof (G_ext s x) as He; rewrite Hg in He.
  - (* the call found nothing complete: with x appended it behaves like the blocked state with x appended *)
    intros s'' ms'' r2 D2. destruct He as [He _]. apply (drains_G_eq _ _ _ _ _ _ He D2).
  - apply drains_step. rewrite He. auto.
  - destruct r as [e|].
    + apply drains_step. rewrite He, driver_apply_ext, Hd. exact IH.
    + intros s'' ms'' r2 D2. apply drains_step. rewrite He, driver_apply_ext, Hd. apply IH. exact D2.
  - apply drains_step. rewrite He, driver_apply_ext, Hd. auto.
Qed.

Lemma drains_fun s acc s1 ms1 r1 : drains s acc s1 ms1 r1 -> forall s2 ms2 r2, drains s acc s2 ms2 r2 -> s1 = s2 /\ ms1 = ms2 /\ r1 = r2.
Proof.
  intros D. induction D as [s s' acc Hg|s s' acc e Hg|s sa sb m acc s' ms r Hg Hd D IH|s sa m acc e Hg Hd]; intros s2 ms2 r2 D2;
    apply drains_step in D2; rewrite gnm_nil in Hg; rewrite Hg, ?Hd in D2.
  1, 2, 4: destruct D2 as [-> [-> ->]]; auto.
  apply IH. exact D2.
Qed.

Lemma drains_quiescent s acc s' ms : drains s acc s' ms None -> get_next_message s' [] = (s', DNone).
Proof.
  intros D. remember None as res eqn:Eres. induction D as [s s' acc Hg|s s' acc e Hg|s s1 s2 m acc s' ms r Hg Hd D IH|s s1 m acc e Hg Hd]; try discriminate.
  - rewrite gnm_nil in *. pose proof (G_ext s []) as He. rewrite Hg in He. destruct He as [_ Hb]. apply G_blocked. exact Hb.
  - apply IH. exact Eres.
Qed.

(* C15 for the deserializer: any partition behaves like the whole stream in one call, to the same verdict *)
Lemma feeds_whole_any pieces : forall s acc s' ms res,
  get_next_message s [] = (s, DNone) -> feeds s pieces acc s' ms res ->
  exists s'', drains (ext s (concat pieces)) acc s'' ms res /\ (res = None -> s'' = s').
Proof.
  induction pieces as [|p r IH]; intros s acc s' ms res Hq F; inversion F as [|a b c d s1 ms1 e f g D1 F2|a b c d s1 ms1 e1 D1]; subst;
    cbn [concat]; rewrite <- ?ext_ext.
  - exists s'. rewrite ext_nil. split; [apply dr_none; exact Hq|reflexivity].
  - destruct (IH s1 ms1 s' ms res (drains_quiescent _ _ _ _ D1) F2) as [s'' [D2 E]].
    exists s''. split; [apply (drains_ext _ _ _ _ _ _ D1); exact D2|exact E].
  - eexists. split; [apply (drains_ext _ _ _ _ _ _ D1)|discriminate].
Qed.

Theorem feeds_whole pieces : forall s acc s' ms,
  get_next_message s [] = (s, DNone) ->
  feeds s pieces acc s' ms None -> drains (ext s (concat pieces)) acc s' ms None.
Proof. intros s acc s' ms Hq F. destruct (feeds_whole_any _ _ _ _ _ _ Hq F) as [s'' [D E]]. rewrite <- (E eq_refl). exact D. Qed.

Theorem partition_independent s p1 p2 acc s1 ms1 r1 s2 ms2 r2 :
  get_next_message s [] = (s, DNone) -> concat p1 = concat p2 ->
  feeds s p1 acc s1 ms1 r1 -> feeds s p2 acc s2 ms2 r2 -> ms1 = ms2 /\ r1 = r2.
Proof.
  intros Hq Hc F1 F2.
  destruct (feeds_whole_any _ _ _ _ _ _ Hq F1) as [sa [Da _]]. destruct (feeds_whole_any _ _ _ _ _ _ Hq F2) as [sb [Db _]].
  rewrite Hc in Da. destruct (drains_fun _ _ _ _ _ Da _ _ _ Db) as [_ [Hm Hr]]. split; assumption.
Qed.

Lemma init_quiescent : get_next_message de_init [] = (de_init, DNone).
Proof. reflexivity. Qed.

Lemma drain_sound fuel : forall s acc s' ms r, drain fuel s acc = (s', ms, r) -> r <> Some DrvFuel -> drains s acc s' ms r.
Proof.
  induction fuel as [|f IH]; intros s acc s' ms r H Hr; cbn [drain] in H; [injection H as <- <- <-; contradiction|].
  apply drains_step. rewrite <- gnm_nil. destruct (get_next_message s []) as [s1 [m| |e|]].
  - destruct (driver_apply s1 m) as [s2|e|x|]; [apply IH; assumption|..]; injection H as <- <- <-; auto.
  - injection H as <- <- <-. auto.
  - injection H as <- <- <-. auto.
  - injection H as <- <- <-. contradiction.
Qed.

Lemma feed_all_sound pieces : forall s acc s' ms r, feed_all s pieces acc = (s', ms, r) -> r <> Some DrvFuel -> feeds s pieces acc s' ms r.
Proof.
  induction pieces as [|p rest IH]; intros s acc s' ms r H Hr; cbn [feed_all] in H.
  - inversion H; subst. apply fd_nil.
  - destruct (feed s p acc) as [[s1 ms1] r1] eqn:Ef. unfold feed in Ef. fold (ext s p) in Ef.
    destruct r1 as [e|].
    + inversion H; subst. apply fd_err. apply (drain_sound _ _ _ _ _ _ Ef). exact Hr.
    + eapply fd_ok; [apply (drain_sound _ _ _ _ _ _ Ef); discriminate|]. apply IH; assumption.
Qed.

(* C15 on the executable driving loop: two partitions of one stream return the same messages and the same verdict *)
Theorem feed_all_partition_independent p1 p2 s1 ms1 r1 s2 ms2 r2 :
  concat p1 = concat p2 ->
  feed_all de_init p1 [] = (s1, ms1, r1) -> feed_all de_init p2 [] = (s2, ms2, r2) ->
  r1 <> Some DrvFuel -> r2 <> Some DrvFuel -> ms1 = ms2 /\ r1 = r2.
Proof.
  intros Hc F1 F2 H1 H2.
  apply (partition_independent de_init p1 p2 [] s1 ms1 r1 s2 ms2 r2 init_quiescent Hc);
    [apply feed_all_sound; assumption|apply feed_all_sound; assumption].
Qed.
