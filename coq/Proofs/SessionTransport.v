(* C02, transport for whole session calls: the packets returned by ANY successful call of either session, delivered in ANY
   fragmentation to a deserializer linked with that session's serializer, are decoded as exactly one message per packet, in order,
   without error, and the link holds again afterwards - so it holds along every schedule of calls and deliveries. *)
From RML Require Import Model.Base Model.Chunk Model.ChunkSer Model.ChunkDe Model.SessionCommon Model.Server Model.Client
  Proofs.ChunkSerProofs Proofs.InteropProofs Proofs.Transport Proofs.ServerProofs Proofs.SessionFrame Proofs.SessionTrace Proofs.ClientTrace.
Local Open Scope N_scope.

Lemma emits_transport ser de pk ser' pieces : Link ser de -> emits ser pk ser' -> concat pieces = concat (map fst pk) ->
  exists de' msgs, feed_all de pieces [] = (de', msgs, None) /\ length msgs = length pk /\ Link ser' de'.
Proof.
  intros HL [ops [Hwf [Hrun Hd]]] Hcat.
  destruct (link_run ser de ops _ ser' pieces HL Hwf Hrun Hcat) as [de' [Hf HL']].
  exists de', (map op_msg ops). split; [exact Hf|]. split; [|exact HL'].
  rewrite map_length. rewrite <- (map_length op_drop), Hd, map_length. reflexivity.
Qed.

Theorem client_call_transport c op de pieces :
  cop_ok op -> cinv c -> ser_ok (cl_ser c) -> Link (cl_ser c) de ->
  match client_step c op with
  | (c', COk rs) =>
      concat pieces = concat (map fst (cpkts rs)) ->
      exists de' msgs, feed_all de pieces [] = (de', msgs, None) /\ length msgs = length (cpkts rs) /\ Link (cl_ser c') de' /\ cinv c'
  | _ => True
  end.
Proof.
  intros Hop Hi Hs HL. pose proof (client_step_traced c op Hop Hi Hs) as Ht.
  destruct (client_step c op) as [c' r]. destruct r as [rs| |]; try exact I.
  destruct Ht as [He Hi']. intros Hcat.
  destruct (emits_transport _ _ _ _ _ HL He Hcat) as [de' [msgs [Hf [Hl HL']]]]. exists de', msgs. split; [exact Hf|split; [exact Hl|split; assumption]].
Qed.

Theorem server_call_transport s op de pieces :
  sop_ok op -> sinv s -> ser_ok (sv_ser s) -> Link (sv_ser s) de ->
  match server_step s op with
  | (s', ROk rs) =>
      concat pieces = concat (map fst (pkts rs)) ->
      exists de' msgs, feed_all de pieces [] = (de', msgs, None) /\ length msgs = length (pkts rs) /\ Link (sv_ser s') de' /\ sinv s'
  | _ => True
  end.
Proof.
  intros Hop Hi Hs HL. pose proof (server_step_traced s op Hop Hi Hs) as Ht.
  destruct (server_step s op) as [s' r]. destruct r as [rs| |]; try exact I.
  destruct Ht as [He Hi']. intros Hcat.
  destruct (emits_transport _ _ _ _ _ HL He Hcat) as [de' [msgs [Hf [Hl HL']]]]. exists de', msgs. split; [exact Hf|split; [exact Hl|split; assumption]].
Qed.
