(* C02: the workflow theorems deliver one packet per input call; by C15 for sessions the same events, the same verdict and the same
   protocol state result when that packet reaches the peer cut into pieces in any way. *)
From Coq Require Import List.
From RML Require Import Model.Base Model.Chunk Model.ChunkSer Model.ChunkDe Model.SessionCommon Model.Server Model.Client
  Proofs.ChunkDeProofs Proofs.ServerProofs Proofs.InteropProofs Proofs.SessionPartition Proofs.ClientPartition Proofs.InteropPartition.
Import ListNotations.
Local Open Scope N_scope.

Theorem server_packet_any_fragmentation s ser b pieces clock s' rs :
  Link ser (sv_de s) -> ser_ok (sv_ser s) -> List.concat pieces = b ->
  server_handle_input s b clock = (s', ROk rs) ->
  exists s2, feed_server s pieces clock [] = (s2, events rs, VOk) /\ same_core s' s2.
Proof.
  intros HL Hss Hcat Hin.
  apply (server_pieces s [b] pieces clock s' (events rs) Hss (link_quiescent _ _ HL)).
  - cbn [List.concat]. rewrite app_nil_r. exact Hcat.
  - cbn [feed_server]. rewrite Hin. reflexivity.
Qed.

Theorem client_packet_any_fragmentation c ser b pieces clock c' rs :
  Link ser (cl_de c) -> ser_ok (cl_ser c) -> List.concat pieces = b ->
  client_handle_input c b clock = (c', COk rs) ->
  exists c2, feed_client c pieces clock [] = (c2, cevents rs, CVOk) /\ csame_core c' c2.
Proof.
  intros HL Hss Hcat Hin.
  apply (client_pieces c [b] pieces clock c' (cevents rs) Hss (link_quiescent _ _ HL)).
  - cbn [List.concat]. rewrite app_nil_r. exact Hcat.
  - cbn [feed_client]. rewrite Hin. reflexivity.
Qed.
