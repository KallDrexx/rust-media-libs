(* The serializer's output is bounded by its input: every chunk adds at most 16 header bytes and carries at least one payload
   byte (chunk size >= 1), so a packet is at most 17 * payload + 16 bytes.  (C19: bounded memory; C03: allocation follows input.) *)
From Coq Require Import ZArith Lia ZifyN ZifyBool ZifyNat.
From RML Require Import Model.Base Model.Chunk Model.ChunkSer Spec.ChunkSpec Proofs.BaseProofs Proofs.ChunkSpecProofs Proofs.ChunkSerProofs.
Local Open Scope N_scope.

Lemma emit_chunk_size c : c_form c = 1 -> lenN (emit_chunk c) <= 16 + lenN (c_payload c).
Proof.
  intros Hf. rewrite emit_chunk_eq, !lenN_app. unfold basic_header_bytes. rewrite Hf. change (1 =? 1) with true. cbv iota.
  assert (H1 : lenN (fixed_bytes c) <= 11)
    by (unfold fixed_bytes; destruct (c_fmt c =? 0); [|destruct (c_fmt c =? 1); [|destruct (c_fmt c =? 2)]]; vm_compute; discriminate).
  assert (H2 : lenN (ext_bytes c) <= 4) by (unfold ext_bytes; destruct (16777215 <=? c_field c); vm_compute; discriminate).
  change (lenN [c_fmt c * 64 + c_csid c]) with 1. lia.
Qed.

Lemma add_chunks_size sl : forall st force m idx drop bs st',
  add_chunks st force m idx sl drop = Ok (bs, st') -> lenN (concat bs) <= 16 * lenN sl + lenN (concat sl).
Proof.
  induction sl as [|s r IH]; intros st force m idx drop bs st' H.
  - injection H as <- <-. cbn. lia.
  - destruct (add_chunks_cons _ _ _ _ _ _ _ _ _ H) as [f [h [bs' [_ [E ->]]]]]. specialize (IH _ _ _ _ _ _ _ E).
    pose proof (emit_chunk_size (chunk_of f (get_csid_for_message_type (m_tid m)) h s) eq_refl) as Hb. cbn [c_payload chunk_of] in Hb.
    cbn [concat]. rewrite !lenN_app, lenN_cons. lia.
Qed.

Lemma slices_count max : 1 <= max -> forall sl fuel data, slices fuel max data = Some sl -> concat sl = data /\ lenN sl <= lenN data.
Proof.
  intros Hm. induction sl as [|a r IH]; intros fuel data H; destruct data as [|x l]; try (rewrite slices_nil in H; injection H as H); try discriminate.
  - split; [reflexivity|cbn; lia].
  - destruct (slices_cons _ _ _ _ _ H) as [? [? [? [? [E _]]]]]. discriminate E.
  - destruct (slices_cons _ _ _ _ _ H) as [fuel' [a' [b [r' [E [S R]]]]]]. injection E as <- <-.
    destruct (split_at_spec _ _ _ _ S) as [E L]. destruct (IH _ _ R) as [Ec Hl].
    split; [cbn [concat]; rewrite Ec; symmetry; exact E|].
    assert (Hxl : lenN (x :: l) = lenN a + lenN b) by (rewrite E; apply lenN_app). rewrite !lenN_cons in *. lia.
Qed.

Theorem serialize_size st m force drop b st' :
  1 <= s_max st -> serialize st m force drop = Ok (b, st') -> lenN b <= 17 * lenN (m_data m) + 16.
Proof.
  intros Hm. unfold serialize. destruct (16777215 <? lenN (m_data m)); [discriminate|].
  destruct (slices (length (m_data m)) (s_max st) (m_data m)) as [sl|] eqn:S; [|discriminate].
  destruct (slices_count (s_max st) Hm _ _ _ S) as [Ec Hl]. cbv zeta.
  set (sl' := match sl with [] => [[]] | _ :: _ => sl end).
  intros H. apply obind_ok in H. destruct H as [[bs st1] [E H]]. injection H as <- <-.
  pose proof (add_chunks_size sl' _ _ _ _ _ _ _ E) as Hb.
  assert (Hs : lenN sl' <= lenN (m_data m) + 1 /\ lenN (concat sl') = lenN (m_data m)).
  { unfold sl'. destruct sl as [|s r]; [cbn [concat] in Ec; rewrite <- Ec; split; [vm_compute; discriminate|reflexivity]|].
    unfold bytes in *. split; [lia|rewrite Ec; reflexivity]. }
  unfold bytes in *. lia.
Qed.

Theorem set_max_chunk_size_size st n ts b st' :
  1 <= s_max st -> set_max_chunk_size st n ts = Ok (b, st') -> lenN b <= 84.
Proof.
  intros Hm. unfold set_max_chunk_size. destruct ((n =? 0) || (2147483647 <? n)); [discriminate|].
  intros H. apply obind_ok in H. destruct H as [[b1 st1] [E H]]. injection H as <- <-.
  pose proof (serialize_size _ _ _ _ _ _ Hm E) as Hb. cbn [m_data] in Hb. change (lenN (be32 n)) with 4 in Hb. lia.
Qed.
