(* The metadata mapping of the sessions: StreamMetadata -> AMF0 properties (client side) -> StreamMetadata is the identity, and the
   properties object is a well-formed, expressible AMF0 object.  The server writes the same properties in another order, which
   no reader of an object with distinct keys can see. *)
From Coq Require Import Lia String Permutation.
From RML Require Import Model.Base Model.Utf8 Model.Amf0 Model.Float Model.SessionCommon Model.Client Spec.Amf0Wire Proofs.Amf0Proofs Proofs.FloatProofs.
Local Open Scope N_scope.

Lemma prop_get_app k a b : prop_get k (a ++ b) = match prop_get k a with Some v => Some v | None => prop_get k b end.
Proof. induction a as [|[k' v] r IH]; [reflexivity|]. cbn [app prop_get]. destruct (bytes_eqb k k'); [reflexivity|exact IH]. Qed.

Lemma bytes_eqb_refl a : bytes_eqb a a = true.
Proof. induction a as [|x a IH]; [reflexivity|]. cbn [bytes_eqb]. rewrite N.eqb_refl. exact IH. Qed.

Lemma bytes_eqb_eq a : forall b, bytes_eqb a b = true -> a = b.
Proof.
  induction a as [|x a IH]; intros [|y b] H; try discriminate H; [reflexivity|].
  cbn [bytes_eqb] in H. apply andb_prop in H. destruct H as [Hx Hr]. apply N.eqb_eq in Hx. rewrite Hx, (IH b Hr). reflexivity.
Qed.

Fixpoint nodupb (l : list bytes) : bool :=
  match l with [] => true | x :: r => negb (existsb (bytes_eqb x) r) && nodupb r end.

Lemma nodupb_sound l : nodupb l = true -> NoDup l.
Proof.
  induction l as [|x r IH]; intros H; [constructor|]. cbn [nodupb] in H. apply andb_prop in H. destruct H as [Hx Hr].
  constructor; [|exact (IH Hr)]. intros Hi. apply Bool.negb_true_iff in Hx.
  rewrite (proj2 (existsb_exists _ _) (ex_intro _ x (conj Hi (bytes_eqb_refl x)))) in Hx. discriminate Hx.
Qed.

Lemma prop_get_perm k ps qs : Permutation ps qs -> NoDup (map fst ps) -> prop_get k ps = prop_get k qs.
Proof.
  induction 1 as [|[k1 v1] ps qs HP IH|[k1 v1] [k2 v2] ps|ps qs rs HP1 IH1 HP2 IH2]; cbn [map fst prop_get]; intros N.
  - reflexivity.
  - rewrite IH by (inversion N; assumption). reflexivity.
  - destruct (bytes_eqb k k2) eqn:E2, (bytes_eqb k k1) eqn:E1; try reflexivity.
    (* both keys equal k: they are not distinct *)
    apply bytes_eqb_eq in E1, E2. subst k1 k2. inversion N as [|? ? Hn _]. destruct Hn. left. reflexivity.
  - rewrite IH1 by exact N. apply IH2. exact (Permutation_NoDup (Permutation_map fst HP1) N).
Qed.

Lemma metadata_of_props_perm ps qs : Permutation ps qs -> NoDup (map fst ps) -> metadata_of_props ps = metadata_of_props qs.
Proof. intros HP N. unfold metadata_of_props. rewrite !(fun k => prop_get_perm k ps qs HP N). reflexivity. Qed.

Lemma wf_props_perm ps qs : Permutation ps qs -> wf_props ps -> wf_props qs.
Proof. induction 1 as [|[k1 v1] ps qs HP IH|[k1 v1] [k2 v2] ps|ps qs rs HP1 IH1 HP2 IH2]; cbn [wf_props]; tauto. Qed.

Lemma wf_object_perm ps qs : Permutation ps qs -> wf_value (VObject ps) -> wf_value (VObject qs).
Proof.
  intros HP. rewrite !wf_value_object. intros [N W].
  split; [exact (Permutation_NoDup (Permutation_map fst HP) N)|exact (wf_props_perm ps qs HP W)].
Qed.

Lemma expressible_props_perm ps qs : Permutation ps qs -> expressible_props ps = expressible_props qs.
Proof.
  induction 1 as [|[k1 v1] ps qs HP IH|[k1 v1] [k2 v2] ps|ps qs rs HP1 IH1 HP2 IH2]; cbn [expressible_props].
  - reflexivity.
  - rewrite IH. reflexivity.
  - destruct (_ && expressible v2), (_ && expressible v1); reflexivity.
  - rewrite IH1. exact IH2.
Qed.

Lemma prop_get_opt_same {A} k (o : option A) g : prop_get (str k) (opt_prop k o g) = option_map g o.
Proof. destruct o; [|reflexivity]. cbn [opt_prop prop_get]. rewrite bytes_eqb_refl. reflexivity. Qed.

Lemma prop_get_opt_other {A} k k' (o : option A) g : bytes_eqb (str k) (str k') = false -> prop_get (str k) (opt_prop k' o g) = None.
Proof. intros H. destruct o; [|reflexivity]. cbn [opt_prop prop_get]. rewrite H. reflexivity. Qed.

Lemma prop_get_opt_skip {A} k k' (o : option A) g r :
  bytes_eqb (str k) (str k') = false -> prop_get (str k) (opt_prop k' o g ++ r) = prop_get (str k) r.
Proof. intros H. rewrite prop_get_app, prop_get_opt_other by exact H. reflexivity. Qed.

Lemma prop_get_opt_here {A} k (o : option A) g r : prop_get (str k) r = None -> prop_get (str k) (opt_prop k o g ++ r) = option_map g o.
Proof. intros H. rewrite prop_get_app, prop_get_opt_same, H. destruct o; reflexivity. Qed.

(* looks a key up in a list written with opt_prop: the entries before its own have other keys, and so have those after it *)
Ltac md_get :=
  rewrite ?prop_get_opt_skip by reflexivity;
  first [ rewrite prop_get_opt_here by (rewrite ?prop_get_opt_skip by reflexivity; apply prop_get_opt_other; reflexivity)
        | rewrite prop_get_opt_same ].

Lemma wf_props_opt {A} k (o : option A) g :
  utf8_valid (str k) = true -> (forall x, o = Some x -> wf_value (g x)) -> wf_props (opt_prop k o g).
Proof. intros Hk Hg. destruct o as [x|]; cbn [opt_prop wf_props]; [|exact I]. split; [exact Hk|]. split; [exact (Hg x eq_refl)|exact I]. Qed.

Lemma expressible_props_opt {A} k (o : option A) g :
  (1 <=? lenN (str k)) && (lenN (str k) <=? 65535) = true -> (forall x, o = Some x -> expressible (g x) = true) ->
  expressible_props (opt_prop k o g) = true.
Proof. intros Hk Hg. destruct o as [x|]; cbn [opt_prop expressible_props]; [|reflexivity]. rewrite Hk, (Hg x eq_refl). reflexivity. Qed.

(* what the Rust types guarantee of a StreamMetadata: u32 fields, an f32 frame rate; the frame rate must survive f32 -> f64 -> f32
   (every non-NaN f32 does; stated as a hypothesis on the value because Model/Float.v has no proof of it) *)
Definition md_ok (m : metadata) : Prop :=
  (forall x, md_width m = Some x -> x < 4294967296) /\ (forall x, md_height m = Some x -> x < 4294967296) /\
  (forall x, md_vcodec m = Some x -> x < 4294967296) /\ (forall x, md_vbitrate m = Some x -> x < 4294967296) /\
  (forall x, md_acodec m = Some x -> x < 4294967296) /\ (forall x, md_abitrate m = Some x -> x < 4294967296) /\
  (forall x, md_asamplerate m = Some x -> x < 4294967296) /\ (forall x, md_achannels m = Some x -> x < 4294967296) /\
  (forall x, md_framerate m = Some x -> x < 4294967296 /\ f64_to_f32 (f32_to_f64 x) = x).

Lemma metadata_of_props_fields ps m :
  num_u32 (prop_get (str "width") ps) = md_width m -> num_u32 (prop_get (str "height") ps) = md_height m ->
  num_u32 (prop_get (str "videocodecid") ps) = md_vcodec m ->
  match prop_get (str "framerate") ps with Some (VNumber b) => Some (f64_to_f32 b) | _ => None end = md_framerate m ->
  num_u32 (prop_get (str "videodatarate") ps) = md_vbitrate m -> num_u32 (prop_get (str "audiocodecid") ps) = md_acodec m ->
  num_u32 (prop_get (str "audiodatarate") ps) = md_abitrate m -> num_u32 (prop_get (str "audiosamplerate") ps) = md_asamplerate m ->
  num_u32 (prop_get (str "audiochannels") ps) = md_achannels m ->
  match prop_get (str "stereo") ps with Some (VBoolean b) => Some b | _ => None end = md_stereo m ->
  match prop_get (str "encoder") ps with Some (VString s) => Some s | _ => None end = md_encoder m ->
  metadata_of_props ps = m.
Proof.
  intros E1 E2 E3 E4 E5 E6 E7 E8 E9 E10 E11. unfold metadata_of_props. rewrite E1, E2, E3, E4, E5, E6, E7, E8, E9, E10, E11.
  destruct m; reflexivity.
Qed.

Lemma num_u32_roundtrip o : (forall x, o = Some x -> x < 4294967296) -> num_u32 (option_map (fun x => VNumber (u32_to_f64 x)) o) = o.
Proof. intros H. destruct o as [x|]; [|reflexivity]. cbn [option_map num_u32]. rewrite (u32_roundtrip x (H x eq_refl)). reflexivity. Qed.

Theorem metadata_roundtrip_client m : md_ok m -> metadata_of_props (metadata_props_client m) = m.
Proof.
  intros [H1 [H2 [H3 [H4 [H5 [H6 [H7 [H8 H9]]]]]]]].
  apply metadata_of_props_fields; unfold metadata_props_client; md_get; try (apply num_u32_roundtrip; assumption).
  - destruct (md_framerate m) as [x|]; [|reflexivity]. cbn [option_map]. rewrite (proj2 (H9 x eq_refl)). reflexivity.
  - destruct (md_stereo m); reflexivity.
  - destruct (md_encoder m); reflexivity.
Qed.

Inductive sublist {A} : list A -> list A -> Prop :=
| sl_nil : sublist [] []
| sl_skip x a b : sublist a b -> sublist a (x :: b)
| sl_keep x a b : sublist a b -> sublist (x :: a) (x :: b).

Lemma sublist_in {A} (a b : list A) x : sublist a b -> In x a -> In x b.
Proof. induction 1 as [|y a b _ IH|y a b _ IH]; cbn; intros Hx; [contradiction|right; auto|destruct Hx as [Hx|Hx]; [left; assumption|right; auto]]. Qed.

Lemma sublist_nodup {A} (a b : list A) : sublist a b -> NoDup b -> NoDup a.
Proof.
  induction 1 as [|y a b S IH|y a b S IH]; intros N; [constructor|inversion N; auto|].
  inversion N as [|? ? Hn Hr]; subst. constructor; [intros Hi; apply Hn; apply (sublist_in _ _ _ S Hi)|auto].
Qed.

Lemma sublist_app {A} (a1 b1 a2 b2 : list A) : sublist a1 b1 -> sublist a2 b2 -> sublist (a1 ++ a2) (b1 ++ b2).
Proof. induction 1; cbn; intros Hx; [exact Hx|apply sl_skip; auto|apply sl_keep; auto]. Qed.

Lemma sublist_keys_app (a b : list (bytes * value)) ka kb :
  sublist (map fst a) ka -> sublist (map fst b) kb -> sublist (map fst (a ++ b)) (ka ++ kb).
Proof. rewrite map_app. apply sublist_app. Qed.

Lemma sublist_opt {A} k (o : option A) g : sublist (map fst (opt_prop k o g)) [str k].
Proof. destruct o; cbn; [apply sl_keep|apply sl_skip]; apply sl_nil. Qed.

Definition md_keys : list bytes :=
  [str "width"; str "height"; str "videocodecid"; str "framerate"; str "videodatarate"; str "audiocodecid"; str "audiodatarate";
   str "audiosamplerate"; str "audiochannels"; str "stereo"; str "encoder"].

Lemma md_keys_nodup : NoDup md_keys.
Proof. apply nodupb_sound. reflexivity. Qed.

Lemma md_props_nodup m : NoDup (map fst (metadata_props_client m)).
Proof.
  apply (sublist_nodup _ md_keys); [|exact md_keys_nodup]. unfold metadata_props_client, md_keys.
  repeat (apply (sublist_keys_app _ _ [_]); [apply sublist_opt|]). apply sublist_opt.
Qed.

Lemma wf_props_app a b : wf_props (a ++ b) <-> wf_props a /\ wf_props b.
Proof. induction a as [|[k x] r IH]; cbn [app wf_props]; [tauto|]. rewrite IH. tauto. Qed.
Lemma expressible_props_app a b : expressible_props (a ++ b) = expressible_props a && expressible_props b.
Proof. induction a as [|[k x] r IH]; cbn [app expressible_props]; [reflexivity|]. rewrite IH. rewrite !Bool.andb_assoc. reflexivity. Qed.

Definition enc_ok (m : metadata) : Prop := forall s, md_encoder m = Some s -> utf8_valid s = true /\ lenN s <= 65535.

Lemma md_props_expressible m : enc_ok m -> expressible_props (metadata_props_client m) = true.
Proof.
  intros He. unfold metadata_props_client. repeat (rewrite expressible_props_app; apply andb_true_intro; split).
  all: apply expressible_props_opt; try reflexivity; try (intros x _; reflexivity).
  intros s E. cbn [expressible]. destruct (He s E) as [_ Hl]. lia.
Qed.

Theorem md_props_wf m : md_ok m -> enc_ok m ->
  wf_value (VObject (metadata_props_client m)) /\ expressible (VObject (metadata_props_client m)) = true.
Proof.
  intros [H1 [H2 [H3 [H4 [H5 [H6 [H7 [H8 H9]]]]]]]] He. split; [|exact (md_props_expressible m He)].
  apply wf_value_object. split; [exact (md_props_nodup m)|].
  unfold metadata_props_client. repeat (apply wf_props_app; split).
  all: apply wf_props_opt; [reflexivity|intros x E; cbn [wf_value]]; try (apply u32_to_f64_bound; auto).
  - apply f32_to_f64_bound. exact (proj1 (H9 x E)).
  - exact I.
  - exact (proj1 (He x E)).
Qed.

Lemma md_props_perm m : Permutation (metadata_props_client m) (metadata_props_server m).
Proof. unfold metadata_props_client, metadata_props_server. do 3 apply Permutation_app_head. apply Permutation_app_swap_app. Qed.

Lemma md_props_server_wf m : md_ok m -> enc_ok m -> wf_value (VObject (metadata_props_server m)).
Proof. intros Hm He. exact (wf_object_perm _ _ (md_props_perm m) (proj1 (md_props_wf m Hm He))). Qed.

Lemma md_props_server_expressible m : enc_ok m -> expressible (VObject (metadata_props_server m)) = true.
Proof. intros He. rewrite expressible_object, <- (expressible_props_perm _ _ (md_props_perm m)). exact (md_props_expressible m He). Qed.
