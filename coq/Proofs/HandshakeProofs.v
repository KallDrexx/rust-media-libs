(* C11 / C05: handshake packets. All statements are parametric in the HMAC function (any function with 32-byte
   output); the executable instance is the Gallina HMAC-SHA256 of Model/Sha256.v, with its published test vectors in
   Sha256Vectors.v.
   The packet sizes 1536, 1524 and 1504 are nat numerals, unary terms that every comparison of two terms and every
   destruct walks: the proofs generalise them, or reduce the projections around them, before terms are compared. *)
From Coq Require Import ZArith Lia ZifyN ZifyBool ZifyNat.
From RML Require Import Model.Base Model.SessionCommon Model.Sha256 Model.Handshake Gen.Consts.
Local Open Scope list_scope.
Local Open Scope N_scope.

Lemma round_length st k w : length st = 8%nat -> length (round st k w) = 8%nat.
Proof. intros H. do 9 (destruct st as [|? st]; try discriminate). reflexivity. Qed.

Lemma rounds_length ks : forall st ws, length st = 8%nat -> length (rounds st ks ws) = 8%nat.
Proof.
  induction ks as [|k ks IH]; intros st ws H; [exact H|]. destruct ws as [|w ws]; [exact H|].
  cbn [rounds]. apply IH. apply round_length. exact H.
Qed.

Lemma compress_length h block : length h = 8%nat -> length (compress h block) = 8%nat.
Proof.
  intros H. unfold compress. rewrite map_length, combine_length, rounds_length by exact H. rewrite H. reflexivity.
Qed.

Lemma blocks_length fuel : forall h l, length h = 8%nat -> length (blocks fuel h l) = 8%nat.
Proof.
  induction fuel as [|f IH]; intros h l H; [exact H|]. cbn [blocks]. destruct l; [exact H|].
  apply IH. apply compress_length. exact H.
Qed.

Lemma concat_be32_length ws : length (concat (map be32 ws)) = (4 * length ws)%nat.
Proof. induction ws as [|w r IH]; [reflexivity|]. cbn [map concat length]. rewrite app_length, IH. cbn. lia. Qed.

Lemma sha256_length l : length (sha256 l) = 32%nat.
Proof. unfold sha256. rewrite concat_be32_length, blocks_length by reflexivity. reflexivity. Qed.

Lemma hmac_sha256_length k m : length (hmac_sha256 k m) = 32%nat.
Proof. unfold hmac_sha256. apply sha256_length. Qed.

Lemma nth_firstn_lt {A} (l : list A) : forall n i d, (i < n)%nat -> nth i (firstn n l) d = nth i l d.
Proof.
  induction l as [|x l IH]; intros n i d H; [destruct n, i; reflexivity|].
  destruct n; [lia|]. destruct i; [reflexivity|]. cbn. apply IH. lia.
Qed.

Lemma firstn_app_exact {A} (a b : list A) n : length a = n -> firstn n (a ++ b) = a.
Proof. intros <-. rewrite firstn_app, Nat.sub_diag, firstn_all. cbn. apply app_nil_r. Qed.

Lemma skipn_app_exact {A} (a b : list A) n : length a = n -> skipn n (a ++ b) = b.
Proof. intros <-. rewrite skipn_app, Nat.sub_diag, skipn_all. reflexivity. Qed.

Lemma splice_parts {A} (p d : list A) off n : length d = n -> (off + n <= length p)%nat ->
  let q := firstn off p ++ d ++ skipn (off + n) p in
  length q = length p /\ firstn off q = firstn off p /\ firstn n (skipn off q) = d /\ skipn (off + n) q = skipn (off + n) p.
Proof.
  intros Hd H q. assert (Hf : length (firstn off p) = off) by (rewrite firstn_length; lia).
  unfold q. repeat split.
  - rewrite !app_length, skipn_length. lia.
  - apply firstn_app_exact, Hf.
  - rewrite (skipn_app_exact _ _ off Hf). apply firstn_app_exact, Hd.
  - rewrite app_assoc. apply skipn_app_exact. rewrite app_length. lia.
Qed.

Lemma bytes_eqb_eq a : forall b, bytes_eqb a b = true <-> a = b.
Proof.
  induction a as [|x a IH]; destruct b as [|y b]; cbn [bytes_eqb]; try (split; discriminate); [tauto|].
  rewrite Bool.andb_true_iff, N.eqb_eq, IH. split; [intros [-> ->]; reflexivity|intros [= -> ->]; tauto].
Qed.

Lemma full_packet (buf : bytes) : (lenN buf <? HS_PACKET_SIZE) = false -> exists p rest, buf = p ++ rest /\ length p = 1536%nat.
Proof.
  intros H. exists (firstn 1536 buf), (skipn 1536 buf). split; [symmetry; apply firstn_skipn|].
  apply firstn_length_le. unfold lenN, HS_PACKET_SIZE in H. lia.
Qed.

Lemma packet_full (p rest : bytes) : length p = 1536%nat -> (lenN (p ++ rest) <? HS_PACKET_SIZE) = false.
Proof. intros H. unfold lenN, HS_PACKET_SIZE. rewrite app_length, H. lia. Qed.

Section WithHmac.
  Variable hmac : bytes -> bytes -> bytes.
  Hypothesis hmac_length : forall k m, length (hmac k m) = 32%nat.

  Lemma take_rand_length n : forall rand, length (fst (take_rand n rand)) = n.
  Proof.
    induction n as [|n IH]; intros rand; [reflexivity|]. cbn [take_rand].
    destruct rand as [|x rest].
    - specialize (IH []). destruct (take_rand n []) as [a r]. cbn in *. lia.
    - specialize (IH rest). destruct (take_rand n rest) as [a r]. cbn in *. lia.
  Qed.

  (* the packet of a fresh handshake before the digest is written *)
  Definition pre_p1 (rand : bytes) : bytes :=
    [0; 0; 0; 0] ++ ADOBE_VERSION ++ fst (take_rand 1524 rand) ++ [0; 0; 0; 0].

  Lemma pre_p1_length rand : length (pre_p1 rand) = 1536%nat.
  Proof. unfold pre_p1, ADOBE_VERSION. rewrite !app_length, take_rand_length. reflexivity. Qed.

  Definition own_offset (r : role) (p : bytes) : N :=
    match r with RServer => server_digest_offset p | RClient => client_digest_offset p end.
  Definition own_key (r : role) : bytes := match r with RServer => GENUINE_FMS | RClient => GENUINE_FP end.

  Lemma offset_range r p :
    match r with
    | RClient => 12 <= own_offset r p < 740
    | RServer => 776 <= own_offset r p < 1504
    end.
  Proof using hmac hmac_length.
    destruct r; unfold own_offset, server_digest_offset, client_digest_offset,
      HS_OFFSET_MOD, HS_SERVER_OFFSET_MOD, HS_CLIENT_OFFSET_BASE, HS_SERVER_OFFSET_BASE.
    - pose proof (N.mod_upper_bound (sum4 p 772) 728 ltac:(discriminate)) as H. revert H. generalize (sum4 p 772 mod 728). lia.
    - pose proof (N.mod_upper_bound (sum4 p 8) 728 ltac:(discriminate)) as H. revert H. generalize (sum4 p 8 mod 728). lia.
  Qed.

  Lemma sum4_firstn p n at_ : (at_ + 4 <= n)%nat -> sum4 (firstn n p) at_ = sum4 p at_.
  Proof. intros H. unfold sum4. rewrite !nth_firstn_lt by lia. reflexivity. Qed.

  (* the pointer bytes lie before the position they select *)
  Lemma own_offset_prefix r p q :
    let off := N.to_nat (own_offset r p) in firstn off q = firstn off p -> own_offset r q = own_offset r p.
  Proof.
    intros off H. pose proof (offset_range r p) as Hr. unfold own_offset, server_digest_offset, client_digest_offset.
    destruct r; rewrite <- (sum4_firstn q off), H, sum4_firstn by (unfold off; lia); reflexivity.
  Qed.

  (* the packet p with the digest for role r written at the position p's own pointer bytes select *)
  Definition with_digest (r : role) (p : bytes) : bytes :=
    let off := N.to_nat (own_offset r p) in
    firstn off p ++ hmac (own_key r) (firstn off p ++ skipn (off + 32) p) ++ skipn (off + 32) p.

  (* packet 1 as generate_outbound_p0_and_p1 builds it from the role, the stored packet and the random source *)
  Definition gen_p1 (r : role) (sent rand : bytes) : bytes :=
    with_digest r (firstn 4 sent ++ ADOBE_VERSION ++ fst (take_rand 1524 rand) ++ skipn 1532 sent).

  Lemma gen_p0p1_eq h :
    gen_p0p1 hmac h =
      (HS_VERSION_BYTE :: gen_p1 (h_role h) (h_sent_p1 h) (h_rand h),
       {| h_stage := WaitingForPacket0; h_role := h_role h; h_buf := h_buf h;
          h_sent_p1 := gen_p1 (h_role h) (h_sent_p1 h) (h_rand h); h_rand := snd (take_rand 1524 (h_rand h)) |}).
  Proof.
    unfold gen_p0p1, gen_p1, with_digest. generalize 1524%nat. intros n. unfold message_parts, own_offset, own_key.
    destruct (take_rand n (h_rand h)). destruct (h_role h); reflexivity.
  Qed.

  Lemma gen_fresh r rand : h_sent_p1 (snd (gen_p0p1 hmac (hs_new r rand))) = with_digest r (pre_p1 rand).
  Proof. rewrite (gen_p0p1_eq (hs_new r rand)). reflexivity. Qed.

  Lemma digest_written r p : (N.to_nat (own_offset r p) + 32 <= length p)%nat ->
    let off := N.to_nat (own_offset r p) in
    let p1 := with_digest r p in
    length p1 = length p /\ (forall k, (k <= off)%nat -> firstn k p1 = firstn k p) /\
    firstn 32 (skipn off p1) = hmac (own_key r) (firstn off p1 ++ skipn (off + 32) p1) /\ own_offset r p1 = own_offset r p.
  Proof.
    intros Hoff off p1.
    destruct (splice_parts p _ off 32 (hmac_length (own_key r) (firstn off p ++ skipn (off + 32) p)) Hoff) as [Hlen [Hpre [Hdig Hpost]]].
    change (firstn off p ++ _ ++ _) with p1 in Hlen, Hpre, Hdig, Hpost.
    rewrite (own_offset_prefix r p p1 Hpre). fold off. rewrite Hdig, Hpre, Hpost. repeat split; try assumption.
    intros k Hk. rewrite <- (Nat.min_l k off Hk), <- !firstn_firstn, Hpre. reflexivity.
  Qed.

  (* C11: the packet 1 the library generates carries a valid digest, keyed for its role, at the position its own
     pointer bytes select; the pointer bytes are not covered by the digest *)
  Theorem p1_digest r rand :
    let p1 := h_sent_p1 (snd (gen_p0p1 hmac (hs_new r rand))) in
    let off := N.to_nat (own_offset r p1) in
    length p1 = 1536%nat /\ firstn 4 p1 = [0; 0; 0; 0] /\ firstn 4 (skipn 4 p1) = ADOBE_VERSION /\
    (off + 32 <= 1536)%nat /\
    firstn 32 (skipn off p1) = hmac (own_key r) (firstn off p1 ++ skipn (off + 32) p1) /\
    own_offset r p1 = own_offset r (pre_p1 rand).
  Proof.
    cbv zeta. rewrite gen_fresh. pose proof (offset_range r (pre_p1 rand)) as Hr.
    assert (Hoff : (N.to_nat (own_offset r (pre_p1 rand)) + 32 <= 1536)%nat) by (destruct r; lia).
    pose proof (digest_written r (pre_p1 rand)) as H. rewrite pre_p1_length in H.
    specialize (H Hoff). destruct H as [Hlen [Hpre [Hdig Hsame]]]. rewrite Hsame.
    assert (H8 : firstn 8 (with_digest r (pre_p1 rand)) = firstn 8 (pre_p1 rand)) by (apply Hpre; destruct r; lia).
    repeat split; try assumption.
    - change 4%nat with (Nat.min 4 8). rewrite <- firstn_firstn, H8. reflexivity.
    - rewrite firstn_skipn_comm. change (4 + 4)%nat with 8%nat. rewrite H8. reflexivity.
  Qed.

  Definition peer_key (r : role) : bytes := match r with RServer => GENUINE_FP | RClient => GENUINE_FMS end.

  Theorem find_digest_complete p key :
    let '(b1, d1, a1) := message_parts p (client_digest_offset p) in
    let '(b2, d2, a2) := message_parts p (server_digest_offset p) in
    (hmac key (b1 ++ a1) = d1 -> find_digest hmac p key = Some d1) /\
    (hmac key (b1 ++ a1) <> d1 -> hmac key (b2 ++ a2) = d2 -> find_digest hmac p key = Some d2) /\
    (hmac key (b1 ++ a1) <> d1 -> hmac key (b2 ++ a2) <> d2 -> find_digest hmac p key = None).
  Proof.
    unfold find_digest. destruct (message_parts p (client_digest_offset p)) as [[b1 d1] a1].
    destruct (message_parts p (server_digest_offset p)) as [[b2 d2] a2].
    rewrite <- !bytes_eqb_eq, !Bool.not_true_iff_false.
    destruct (bytes_eqb (hmac key (b1 ++ a1)) d1), (bytes_eqb (hmac key (b2 ++ a2)) d2); repeat split; intros; (discriminate || reflexivity).
  Qed.

  Definition own_p2 (r : role) (rand_after_p1 : bytes) (peer_p1 : bytes) : bytes :=
    match find_digest hmac peer_p1 (peer_key r) with
    | Some d => let body := firstn 1504 (fst (take_rand 1536 rand_after_p1)) in
                body ++ hmac (hmac (own_key r ++ HS_RANDOM_CRUD) d) body
    | None => peer_p1
    end.

  Lemma hs_step_send h : h_stage h = NeedToSendP0AndP1 ->
    hs_step hmac h = (snd (gen_p0p1 hmac h), SProgress (fst (gen_p0p1 hmac h))).
  Proof. intros Es. unfold hs_step. rewrite Es. destruct (gen_p0p1 hmac h). reflexivity. Qed.

  Lemma hs_step_version h : h_stage h = WaitingForPacket0 ->
    hs_step hmac h =
    match h_buf h with
    | [] => (h, SProgress [])
    | b :: rest => if b =? HS_VERSION_BYTE then (set_stage_buf h WaitingForPacket1 rest (h_rand h), SProgress [])
                   else (set_stage_buf h WaitingForPacket0 rest (h_rand h), SFail BadVersionId)
    end.
  Proof. intros Es. unfold hs_step. rewrite Es. reflexivity. Qed.

  Lemma hs_step_short h : h_stage h = WaitingForPacket1 \/ h_stage h = WaitingForPacket2 -> (lenN (h_buf h) <? HS_PACKET_SIZE) = true ->
    hs_step hmac h = (h, SProgress []).
  Proof. intros [Es|Es] El; unfold hs_step; rewrite Es, El; reflexivity. Qed.

  Lemma hs_step_p1 h p1 rest : h_stage h = WaitingForPacket1 -> h_buf h = p1 ++ rest -> length p1 = 1536%nat ->
    hs_step hmac h =
      (set_stage_buf h WaitingForPacket2 rest
         (if find_digest hmac p1 (peer_key (h_role h)) then snd (take_rand 1536 (h_rand h)) else h_rand h),
       SProgress (own_p2 (h_role h) (h_rand h) p1)).
  Proof.
    intros Es Eb Hl. unfold hs_step. rewrite Es, Eb, (packet_full p1 rest Hl).
    rewrite (firstn_app_exact p1 rest (N.to_nat HS_PACKET_SIZE) Hl), (skipn_app_exact p1 rest (N.to_nat HS_PACKET_SIZE) Hl).
    change (match h_role h with RServer => GENUINE_FP | RClient => GENUINE_FMS end) with (peer_key (h_role h)).
    unfold own_p2, own_key. generalize 1504%nat. intros m.   (* also inside 1536, of which 1504 is a subterm *)
    destruct (find_digest hmac p1 (peer_key (h_role h))); [|reflexivity]. destruct (take_rand _ (h_rand h)). reflexivity.
  Qed.

  Lemma hs_step_p2 h p2 rest : h_stage h = WaitingForPacket2 -> h_buf h = p2 ++ rest -> length p2 = 1536%nat ->
    hs_step hmac h = (set_stage_buf h Complete [] (h_rand h), SDone rest).
  Proof.
    intros Es Eb Hl. unfold hs_step. rewrite Es, Eb, (packet_full p2 rest Hl), (skipn_app_exact p2 rest (N.to_nat HS_PACKET_SIZE) Hl). reflexivity.
  Qed.

  Lemma hs_step_complete h : h_stage h = Complete -> hs_step hmac h = (h, SFail HandshakeAlreadyCompleted).
  Proof. intros Es. unfold hs_step. rewrite Es. reflexivity. Qed.

  (* the reply to a full packet 1 in the buffer: signed response to a digest-bearing packet, exact echo otherwise *)
  Theorem p2_reply h p1 rest :
    h_stage h = WaitingForPacket1 -> length p1 = 1536%nat -> h_buf h = p1 ++ rest ->
    match find_digest hmac p1 (peer_key (h_role h)) with
    | Some d =>
        let body := firstn 1504 (fst (take_rand 1536 (h_rand h))) in
        snd (hs_step hmac h) = SProgress (body ++ hmac (hmac (own_key (h_role h) ++ HS_RANDOM_CRUD) d) body) /\
        length body = 1504%nat
    | None => snd (hs_step hmac h) = SProgress p1
    end /\ h_stage (fst (hs_step hmac h)) = WaitingForPacket2 /\ h_buf (fst (hs_step hmac h)) = rest.
  Proof using hmac hmac_length.
    intros Hs Hl Hb. rewrite (hs_step_p1 h p1 rest Hs Hb Hl). split; [|split; reflexivity]. cbn [snd]. unfold own_p2.
    assert (Hbody : length (firstn 1504 (fst (take_rand 1536 (h_rand h)))) = 1504%nat).
    { apply firstn_length_le. rewrite take_rand_length. apply Nat.leb_le. reflexivity. }
    revert Hbody. generalize (firstn 1504 (fst (take_rand 1536 (h_rand h)))). intros body. generalize 1504%nat. intros m Hbody.
    destruct (find_digest hmac p1 (peer_key (h_role h))); [split; [reflexivity|exact Hbody]|reflexivity].
  Qed.

  Lemma loop_progress {f h h' out resp left} :
    hs_step hmac h = (h', SProgress out) -> stage_eqb (h_stage h') Complete = false -> stage_eqb (h_stage h) (h_stage h') = false ->
    hs_loop hmac (S f) h resp left = hs_loop hmac f h' (resp ++ out) left.
  Proof. intros H1 H2 H3. cbn [hs_loop]. rewrite H1, H2, H3. reflexivity. Qed.

  Lemma loop_done {f h h' rem resp left} :
    hs_step hmac h = (h', SDone rem) -> stage_eqb (h_stage h') Complete = true ->
    hs_loop hmac (S f) h resp left = (h', HCompleted resp (left ++ rem)).
  Proof. intros H1 H2. cbn [hs_loop]. rewrite H1, H2. reflexivity. Qed.

  (* a handshake that has sent its packets 0 and 1 completes on the peer's whole stream within three rounds of the loop
     (process_bytes gives six).  Stated about a state variable h: with the record of hs_new in the goal instead, every
     conversion at Qed evaluates its 1536-byte packet again. *)
  Theorem peer_stream_completes f h p1 p2 trailing resp :
    h_stage h = WaitingForPacket0 -> h_buf h = HS_VERSION_BYTE :: p1 ++ p2 ++ trailing ->
    length p1 = 1536%nat -> length p2 = 1536%nat ->
    snd (hs_loop hmac (S (S (S f))) h resp []) = HCompleted (resp ++ own_p2 (h_role h) (h_rand h) p1) trailing.
  Proof.
    intros Hs Hb Hl1 Hl2.
    pose proof (hs_step_version h Hs) as S1. rewrite Hb, N.eqb_refl in S1.
    rewrite (loop_progress S1 eq_refl) by (rewrite Hs; reflexivity).
    set (h1 := set_stage_buf h WaitingForPacket1 _ _).
    rewrite (loop_progress (hs_step_p1 h1 p1 _ eq_refl eq_refl Hl1) eq_refl eq_refl).
    set (h2 := set_stage_buf h1 WaitingForPacket2 _ _).
    rewrite (loop_done (hs_step_p2 h2 p2 _ eq_refl eq_refl Hl2) eq_refl), app_nil_r. reflexivity.
  Qed.

  Lemma first_call_completes h p1 p2 trailing :
    h_stage h = NeedToSendP0AndP1 -> h_buf h = [] -> length p1 = 1536%nat -> length p2 = 1536%nat ->
    let own := gen_p0p1 hmac h in
    snd (process_bytes hmac h (HS_VERSION_BYTE :: p1 ++ p2 ++ trailing)) =
      HCompleted (fst own ++ own_p2 (h_role h) (h_rand (snd own)) p1) trailing.
  Proof.
    intros Hs Hb Hl1 Hl2. unfold process_bytes. rewrite (gen_p0p1_eq h), Hb.
    set (g := {| h_stage := h_stage h; h_role := _; h_buf := _; h_sent_p1 := _; h_rand := _ |}).
    pose proof (hs_step_send g Hs) as S0. rewrite (gen_p0p1_eq g) in S0. subst g. cbn [fst snd h_role h_rand h_sent_p1 h_buf] in S0.
    rewrite (loop_progress S0 eq_refl) by (rewrite Hs; reflexivity).
    rewrite (peer_stream_completes 2 _ p1 p2 trailing) by auto.
    cbn [fst snd h_role h_rand]. reflexivity.
  Qed.

  Lemma later_call_completes h p1 p2 trailing :
    h_buf h = [] -> length p1 = 1536%nat -> length p2 = 1536%nat ->
    let own := gen_p0p1 hmac h in
    snd (process_bytes hmac (snd own) (HS_VERSION_BYTE :: p1 ++ p2 ++ trailing)) = HCompleted (own_p2 (h_role h) (h_rand (snd own)) p1) trailing.
  Proof.
    intros Hb Hl1 Hl2. unfold process_bytes. rewrite (gen_p0p1_eq h), Hb.
    rewrite (peer_stream_completes 3 _ p1 p2 trailing) by auto. cbn [fst snd h_role h_rand]. reflexivity.
  Qed.

  (* a fresh handshake that is handed the peer's bytes before it has sent anything (what a server does) emits its version byte
     and both packets.  hmac_length is kept in the closed statement although only p1_digest needs it. *)
  Theorem whole_stream_fresh r rand p1 p2 trailing :
    length p1 = 1536%nat -> length p2 = 1536%nat ->
    let own := gen_p0p1 hmac (hs_new r rand) in
    snd (process_bytes hmac (hs_new r rand) (HS_VERSION_BYTE :: p1 ++ p2 ++ trailing)) =
      HCompleted (fst own ++ own_p2 r (h_rand (snd own)) p1) trailing.
  Proof using hmac hmac_length. exact (first_call_completes (hs_new r rand) p1 p2 trailing eq_refl eq_refl). Qed.

  (* the side that starts (a client calls generate_outbound_p0_and_p1 first): the remaining responses are packet 2 only *)
  Theorem whole_stream_after_gen r rand p1 p2 trailing :
    length p1 = 1536%nat -> length p2 = 1536%nat ->
    let own := gen_p0p1 hmac (hs_new r rand) in
    snd (process_bytes hmac (snd own) (HS_VERSION_BYTE :: p1 ++ p2 ++ trailing)) = HCompleted (own_p2 r (h_rand (snd own)) p1) trailing.
  Proof using hmac hmac_length. exact (later_call_completes (hs_new r rand) p1 p2 trailing eq_refl). Qed.
End WithHmac.
