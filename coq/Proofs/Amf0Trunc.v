(* C12, truncation clause: a truncated conformant encoding is either rejected or decoded to a prefix of what was encoded -
   never to data that was not there.  "Prefix" is structural: the decoder ends a strict array early at end of input by design,
   so the last array reached may be cut, recursively in its last element; scalars, strings and objects are never cut. *)
From Coq Require Import ZArith Lia ZifyN ZifyBool ZifyNat.
From RML Require Import Model.Base Model.Amf0 Spec.Amf0Wire Proofs.BaseProofs Proofs.Amf0Proofs.
Local Open Scope N_scope.

Inductive vprefix : value -> value -> Prop :=
| vp_refl v : vprefix v v
| vp_last pre x' x rest : vprefix x' x -> vprefix (VStrictArray (pre ++ [x'])) (VStrictArray (pre ++ x :: rest))
| vp_cut pre rest : vprefix (VStrictArray pre) (VStrictArray (pre ++ rest)).

(* a list of values cut the same way: whole leading elements, then possibly one cut element *)
Inductive lprefix : list value -> list value -> Prop :=
| lp_cut pre rest : lprefix pre (pre ++ rest)
| lp_last pre x' x rest : vprefix x' x -> lprefix (pre ++ [x']) (pre ++ x :: rest).

Lemma lprefix_cons v a b : lprefix a b -> lprefix (v :: a) (v :: b).
Proof.
  intros H. destruct H as [pre rest|pre x' x rest Hx].
  - apply (lp_cut (v :: pre) rest).
  - apply (lp_last (v :: pre) x' x rest Hx).
Qed.

Lemma lprefix_array a b : lprefix a b -> vprefix (VStrictArray a) (VStrictArray b).
Proof. intros H. destruct H as [pre rest|pre x' x rest Hx]; [apply vp_cut|apply vp_last; exact Hx]. Qed.

Lemma nil_split (p q : bytes) : [] = p ++ q -> q <> [] -> False.
Proof. intros H Hq. destruct p; [exact (Hq (eq_sym H))|discriminate]. Qed.

Lemma prefix_split (p q a b : bytes) : p ++ q = a ++ b ->
  (exists a2, a = p ++ a2 /\ q = a2 ++ b /\ a2 <> []) \/ (exists p2, p = a ++ p2 /\ b = p2 ++ q).
Proof.
  intros H. destruct (app_eq_app _ _ _ _ H) as [l [[-> ->]|[-> ->]]]; [right; exists l; split; reflexivity|].
  destruct l as [|x l]; [right; exists []; rewrite !app_nil_r; split; reflexivity|left; exists (x :: l); repeat split; discriminate].
Qed.

Lemma cut_inside (a p q : bytes) n : a = p ++ q -> q <> [] -> lenN a = n -> take_n p n = None.
Proof.
  intros -> Hq <-. destruct q as [|x q]; [contradiction|].
  rewrite take_n_split, lenN_app, lenN_cons. replace (_ <=? _) with false by lia. reflexivity.
Qed.

Lemma cut_header (a b p q : bytes) n : a ++ b = p ++ q -> lenN a = n -> forall P : option (bytes * bytes) -> Prop,
  P None -> (forall p2, p = a ++ p2 -> b = p2 ++ q -> P (Some (a, p2))) -> P (take_n p n).
Proof.
  intros H <- P HN HS. destruct (prefix_split p q a b (eq_sym H)) as [[a2 [E1 [_ E3]]]|[p2 [-> E2]]].
  - rewrite (cut_inside a p a2 _ E1 E3 eq_refl). exact HN.
  - rewrite take_n_app. exact (HS p2 eq_refl E2).
Qed.

Definition good_cut (r : res (option value * bytes)) (w : wire) : Prop :=
  okp (fun '(ov, rest) => rest = [] /\ match ov with None => True | Some v => vprefix v (wire_value w) end) r.

Definition Q_value (f : nat) : Prop :=
  forall w p q, (length p < f)%nat -> wire_ok w -> wire_bytes w = p ++ q -> q <> [] ->
    good_cut (read_next_value f p) w.
Definition Q_props (f : nat) : Prop :=
  forall ps p q acc, (length p < f)%nat -> wire_props_ok ps ->
    wire_props_bytes ps ++ [0; 0; 9] = p ++ q -> q <> [] -> okp (fun _ => False) (read_props f p acc).
(* the outcome of a value loop started with acc on a truncated encoding of ws: the whole input is used, and what was
   read after acc is a cut of what ws denotes *)
Definition cut_result (acc : list value) (ws : list wire) : res (list value * bytes) -> Prop :=
  okp (fun '(vs, rest) => rest = [] /\ exists vs', vs = rev acc ++ vs' /\ lprefix vs' (map wire_value ws)).

Lemma cut_result_nil acc ws : cut_result acc ws (Ok (rev acc, [])).
Proof. split; [reflexivity|]. exists []. split; [symmetry; apply app_nil_r|apply (lp_cut [] _)]. Qed.

Lemma cut_result_one acc v w r : vprefix v (wire_value w) -> cut_result acc (w :: r) (Ok (rev (v :: acc), [])).
Proof.
  intros Hv. split; [reflexivity|]. exists [v]. split; [reflexivity|exact (lp_last [] v (wire_value w) (map wire_value r) Hv)].
Qed.

Lemma cut_result_cons acc w r res : cut_result (wire_value w :: acc) r res -> cut_result acc (w :: r) res.
Proof.
  destruct res as [[vs rest]|e|x|]; try exact (fun H => H). intros [-> [vs' [-> Hl]]]. split; [reflexivity|].
  exists (wire_value w :: vs'). split; [cbn [rev]; rewrite <- app_assoc; reflexivity|apply lprefix_cons; exact Hl].
Qed.

Definition Q_elems (f : nat) : Prop :=
  forall ws p q acc, (length p + 2 < f)%nat -> wire_elems_ok ws -> lenN ws < 4294967296 ->
    wire_elems_bytes ws = p ++ q -> q <> [] -> cut_result acc ws (read_array f (lenN ws) p acc).

Lemma step_Qvalue f : Q_value f -> Q_props f -> Q_elems f -> Q_value (S f).
Proof.
  intros HV HP HE w p q Hlen Hok Hsplit Hq.
  destruct p as [|m p'].
  - exact (conj eq_refl I).
  - destruct w as [b|b|s|ps|c ps|ws| |]; rewrite ?wire_bytes_object, ?wire_bytes_ecma, ?wire_bytes_array in Hsplit;
      cbn [wire_bytes app] in Hsplit; injection Hsplit as <- Hs.
    + rewrite read_value_number, (cut_inside _ p' q 8 Hs Hq eq_refl). exact I.
    + rewrite read_value_boolean.
      destruct p' as [|y p'']; [exact I|]. injection Hs as _ Hs. destruct (nil_split _ _ Hs Hq).
    + destruct Hok as [Hl Hu]. rewrite read_value_string.
      apply (cut_header (be16 (lenN s)) _ p' q 2 Hs eq_refl); [exact I|intros p2 -> E2].
      rewrite of_be_be16, (cut_inside s p2 q _ E2 Hq eq_refl) by lia. exact I.
    + apply wire_ok_object in Hok. rewrite read_value_object.
      refine (okp_bind (HP ps p' q [] ltac:(cbn [length] in Hlen; lia) Hok Hs Hq) _). intros _ [].
    + apply wire_ok_ecma in Hok. destruct Hok as [Hc Hok]. rewrite read_value_ecma.
      apply (cut_header (be32 c) _ p' q 4 Hs eq_refl); [exact I|intros p2 -> E2].
      cbn [length] in Hlen. rewrite app_length, length_be32 in Hlen.
      refine (okp_bind (HP ps p2 q [] ltac:(lia) Hok E2 Hq) _). intros _ [].
    + apply wire_ok_array in Hok. destruct Hok as [Hc Hok]. rewrite read_value_array.
      apply (cut_header (be32 (lenN ws)) _ p' q 4 Hs eq_refl); [exact I|intros p2 -> E2].
      rewrite of_be_be32 by assumption. cbn [length] in Hlen. rewrite app_length, length_be32 in Hlen.
      refine (okp_bind (HE ws p2 q [] ltac:(lia) Hok Hc E2 Hq) _).
      intros [vs rest] [-> [vs' [-> Hl]]]. split; [reflexivity|apply lprefix_array; exact Hl].
    + destruct (nil_split _ _ Hs Hq).
    + destruct (nil_split _ _ Hs Hq).
Qed.

Lemma step_Qprops f : Q_value f -> Q_props f -> Q_props (S f).
Proof.
  intros HV HP ps p q acc Hlen Hok Hsplit Hq.
  destruct ps as [|[name pw] r].
  - cbn [wire_props_bytes app] in Hsplit. cbn [read_props].
    apply (cut_header [0; 0] [9] p q 2 Hsplit eq_refl); [exact I|intros p2 -> E2].
    destruct p2 as [|c p3]; [exact I|]. injection E2 as _ E2. destruct (nil_split _ _ E2 Hq).
  - cbn [wire_props_bytes wire_props_ok] in *. destruct Hok as [[Hn Hu] [Hw Hr]].
    cbn [read_props]. rewrite <- !app_assoc in Hsplit.
    assert (Hnl : (1 <= length name)%nat) by (unfold lenN in Hn; lia).
    pose proof (wire_bytes_nonempty pw) as Hpw.
    apply (cut_header _ _ p q 2 Hsplit eq_refl); [exact I|intros p2 -> E2].
    rewrite app_length, length_be16 in Hlen. rewrite of_be_be16 by lia.
    destruct (lenN name =? 0) eqn:E; [lia|].
    apply (cut_header _ _ p2 q _ E2 eq_refl); [exact I|intros p3 -> F2].
    rewrite app_length in Hlen. rewrite Hu.
    destruct (prefix_split p3 q (wire_bytes pw) _ (eq_sym F2)) as [[a4 [G1 [G2 G3]]]|[p4 [G1 G2]]].
    + (* the cut is inside the property's value *)
      refine (okp_bind (HV pw p3 a4 ltac:(lia) Hw G1 G3) _). intros [[v|] rest] H; [|exact I].
      destruct H as [-> _]. destruct f as [|f']; [lia|exact I].
    + (* the value is complete; the cut is further on *)
      subst p3. rewrite app_length in Hlen. rewrite (decode_complete_value pw p4 f Hw ltac:(lia)). cbn [obind].
      apply (HP r p4 q _ ltac:(lia) Hr G2 Hq).
Qed.

Lemma read_array_nil f n acc : read_array (S (S f)) n [] acc = Ok (rev acc, []).
Proof. cbn [read_array]. destruct (n =? 0); reflexivity. Qed.

Lemma step_Qelems f : Q_value f -> Q_elems f -> Q_elems (S f).
Proof.
  intros HV HE ws p q acc Hlen Hok Hc Hsplit Hq.
  destruct ws as [|x r].
  - destruct (nil_split _ _ Hsplit Hq).
  - cbn [wire_elems_bytes wire_elems_ok] in *. destruct Hok as [Hx Hr].
    rewrite lenN_cons in *. rewrite read_array_succ.
    pose proof (wire_bytes_nonempty x) as Hpw.
    destruct (prefix_split p q (wire_bytes x) _ (eq_sym Hsplit)) as [[a2 [E1 [E2 E3]]]|[p2 [E1 E2]]].
    + (* the cut is inside this element *)
      refine (okp_bind (HV x p a2 ltac:(lia) Hx E1 E3) _).
      intros [[v|] rest] [-> Hv]; [|apply cut_result_nil].
      destruct f as [|[|f']]; [lia..|]. rewrite read_array_nil. apply cut_result_one, Hv.
    + (* this element is complete *)
      subst p. rewrite app_length in Hlen. rewrite (decode_complete_value x p2 f Hx ltac:(lia)). cbn [obind].
      apply cut_result_cons, (HE r p2 q _ ltac:(lia) Hr ltac:(lia) E2 Hq).
Qed.

Lemma trunc_all f : Q_value f /\ Q_props f /\ Q_elems f.
Proof.
  revert f. apply fuel_ind3; [intros w p q H; lia|intros ps p q acc H; lia|intros ws p q acc H; lia|].
  intros f HV HP HE. split; [apply step_Qvalue; assumption|]. split; [apply step_Qprops; assumption|apply step_Qelems; assumption].
Qed.

Lemma read_all_truncated ws : forall f p q acc,
  wire_elems_ok ws -> (length p < f)%nat -> wire_elems_bytes ws = p ++ q -> q <> [] -> cut_result acc ws (read_all f p acc).
Proof.
  induction ws as [|w r IH]; intros f p q acc Hok Hf Hsplit Hq.
  - destruct (nil_split _ _ Hsplit Hq).
  - destruct f as [|f]; [lia|].
    cbn [wire_elems_bytes wire_elems_ok] in *. destruct Hok as [Hw Hr]. cbn [read_all].
    destruct (prefix_split p q (wire_bytes w) _ (eq_sym Hsplit)) as [[a2 [E1 [E2 E3]]]|[p2 [E1 E2]]].
    + destruct p as [|m p']; [apply cut_result_nil|].
      refine (okp_bind (proj1 (trunc_all (S (length (m :: p')))) w (m :: p') a2 ltac:(lia) Hw E1 E3) _).
      intros [[v|] rest] [-> Hv]; [|apply cut_result_nil].
      destruct f as [|f']; [cbn [length] in Hf; lia|]. apply cut_result_one, Hv.
    + subst p. rewrite decode_complete_value; [|assumption|rewrite app_length; lia]. cbn [obind].
      pose proof (wire_bytes_nonempty w) as Hnw. rewrite app_length in Hf.
      apply cut_result_cons, (IH f p2 q _ Hr ltac:(lia) E2 Hq).
Qed.

(* C12: every truncation point of every conformant encoding of a value sequence *)
Theorem truncated_conformant ws p q :
  wire_elems_ok ws -> wire_elems_bytes ws = p ++ q -> q <> [] ->
  match deserialize p with
  | Ok vs' => lprefix vs' (map wire_value ws)
  | Err _ => True
  | _ => False
  end.
Proof.
  intros Hok Hs Hq. unfold deserialize, deserialize_rest.
  refine (okp_bind (read_all_truncated ws (S (length p)) p q [] Hok ltac:(lia) Hs Hq) _).
  intros [vs rest] [_ [vs' [-> Hl]]]. exact Hl.
Qed.

(* ... and of what the library's own encoder writes *)
Theorem truncated_own_encoding vs bs p q :
  wf_values vs -> serialize vs = Ok bs -> bs = p ++ q -> q <> [] ->
  match deserialize p with
  | Ok vs' => lprefix vs' vs
  | Err _ => True
  | _ => False
  end.
Proof.
  intros Hwf E -> Hq. destruct (serialize_wire vs _ Hwf E) as [Hs Hok].
  rewrite <- (embed_values vs Hwf). exact (truncated_conformant (map embed vs) p q Hok (eq_sym Hs) Hq).
Qed.
