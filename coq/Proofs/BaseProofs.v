(* Byte codec and list splitting lemmas shared by all proofs.  Throughout, ZifyN and ZifyNat are what makes lia eliminate
   div and mod, ZifyBool what makes it read boolean comparisons. *)
From Coq Require Import ZArith Lia ZifyN ZifyBool ZifyNat.
From RML Require Import Model.Base Model.Chunk.
Local Open Scope N_scope.

Lemma lenN_app {A} (a b : list A) : lenN (a ++ b) = lenN a + lenN b.
Proof. unfold lenN. rewrite app_length. lia. Qed.

Lemma lenN_cons {A} (x : A) (l : list A) : lenN (x :: l) = lenN l + 1.
Proof. unfold lenN. cbn [length]. lia. Qed.

Lemma lenN_nil {A} : lenN (@nil A) = 0.
Proof. reflexivity. Qed.

Lemma obind_ok {A B E} (x : outcome A E) (g : A -> outcome B E) b : obind x g = Ok b -> exists a, x = Ok a /\ g a = Ok b.
Proof. destruct x as [a| | |]; try discriminate. intros H. exists a. split; [reflexivity|exact H]. Qed.

(* split_at is total and take_n, drop_n are expressed by it, so that each fact about splitting needs one induction. *)
Lemma split_at_spec n l a b : split_at n l = (a, b) -> l = a ++ b /\ lenN a = N.min n (lenN l).
Proof.
  revert n a b. induction l as [|x l IH]; intros n a b H; cbn [split_at] in H.
  - destruct (n =? 0); injection H as <- <-; split; [reflexivity|cbn; lia|reflexivity|cbn; lia].
  - destruct (n =? 0) eqn:E.
    + injection H as <- <-. split; [reflexivity|]. cbn. lia.
    + destruct (split_at (n - 1) l) as [a' b'] eqn:S. injection H as <- <-.
      destruct (IH _ _ _ S) as [-> L]. split; [reflexivity|]. rewrite !lenN_cons, L, lenN_app. lia.
Qed.

Lemma split_at_app (a b : bytes) n : lenN a = n -> split_at n (a ++ b) = (a, b).
Proof.
  intros <-. induction a as [|x a IH].
  - destruct b; reflexivity.
  - cbn [app split_at]. rewrite lenN_cons.
    destruct (lenN a + 1 =? 0) eqn:E; [lia|].
    replace (lenN a + 1 - 1) with (lenN a) by lia. rewrite IH. reflexivity.
Qed.

Lemma take_n_split (l : bytes) : forall n, take_n l n = if n <=? lenN l then Some (split_at n l) else None.
Proof.
  induction l as [|x l IH]; intros n; cbn [take_n split_at]; destruct (n =? 0) eqn:E.
  - apply N.eqb_eq in E. subst n. reflexivity.
  - replace (n <=? lenN []) with false by (cbn; lia). reflexivity.
  - apply N.eqb_eq in E. subst n. reflexivity.
  - rewrite IH, lenN_cons. replace (n <=? lenN l + 1) with (n - 1 <=? lenN l) by lia.
    destruct (n - 1 <=? lenN l); [|reflexivity]. destruct (split_at (n - 1) l). reflexivity.
Qed.

Lemma drop_n_split (l : bytes) : forall n, drop_n n l = snd (split_at n l).
Proof.
  induction l as [|x l IH]; intros n; cbn [drop_n split_at]; destruct (n =? 0); try reflexivity.
  rewrite IH. destruct (split_at (n - 1) l). reflexivity.
Qed.

Lemma take_n_0 (l : bytes) : take_n l 0 = Some ([], l).
Proof. destruct l; reflexivity. Qed.

Lemma take_n_app_len (a b : bytes) n : n = lenN a -> take_n (a ++ b) n = Some (a, b).
Proof.
  intros ->. rewrite take_n_split, (split_at_app a b _ eq_refl), lenN_app.
  replace (lenN a <=? lenN a + lenN b) with true by lia. reflexivity.
Qed.

Lemma take_n_app (a b : bytes) : take_n (a ++ b) (lenN a) = Some (a, b).
Proof. apply take_n_app_len. reflexivity. Qed.

Lemma take_n_length l n a b : take_n l n = Some (a, b) -> l = a ++ b /\ lenN a = n.
Proof.
  rewrite take_n_split. destruct (n <=? lenN l) eqn:E; [|discriminate]. intros H. injection H as H.
  destruct (split_at_spec _ _ _ _ H) as [-> L]. split; [reflexivity|]. lia.
Qed.

Lemma drop_n_app (a b : bytes) n : lenN a = n -> drop_n n (a ++ b) = b.
Proof. intros H. rewrite drop_n_split, (split_at_app a b n H). reflexivity. Qed.

(* be_n is the codec of any width; the fixed widths are instances of it, up to writing n / 256 / 256 as n / 65536. *)
Lemma be_val_app a b acc : be_val (a ++ b) acc = be_val b (be_val a acc).
Proof. revert acc. induction a as [|x a IH]; intros acc; cbn [app be_val]; [reflexivity|apply IH]. Qed.

Lemma be_val_be_n k n acc : be_val (be_n k n) acc = acc * 256 ^ (N.of_nat k) + n mod 256 ^ (N.of_nat k).
Proof.
  revert n acc. induction k as [|k IH]; intros n acc.
  - cbn [be_n be_val]. change (N.of_nat 0) with 0. rewrite N.pow_0_r, N.mod_1_r. lia.
  - cbn [be_n]. rewrite be_val_app, IH. cbn [be_val].
    replace (N.of_nat (S k)) with (N.of_nat k + 1) by lia.
    rewrite N.pow_add_r, N.pow_1_r.
    set (P := 256 ^ N.of_nat k). assert (HP : 0 < P) by (apply N.neq_0_lt_0; apply N.pow_nonzero; lia).
    assert (E : n mod (P * 256) = (n / 256) mod P * 256 + n mod 256).
    { rewrite (N.mul_comm P 256). rewrite N.mod_mul_r by lia. lia. }
    rewrite E. lia.
Qed.

Lemma of_be_be_n k n : n < 256 ^ N.of_nat k -> of_be (be_n k n) = n.
Proof. intros H. unfold of_be. rewrite be_val_be_n, N.mod_small by exact H. reflexivity. Qed.

Lemma of_be_be16 n : n < 65536 -> of_be (be16 n) = n.
Proof. apply (of_be_be_n 2). Qed.

Lemma of_be_be24 n : n < 16777216 -> of_be (be24 n) = n.
Proof. unfold be24. change 65536 with (256 * 256). rewrite <- N.div_div by discriminate. apply (of_be_be_n 3). Qed.

Lemma of_be_be32 n : n < 4294967296 -> of_be (be32 n) = n.
Proof.
  unfold be32. change 16777216 with (256 * 256 * 256). change 65536 with (256 * 256). rewrite <- !N.div_div by discriminate.
  apply (of_be_be_n 4).
Qed.

Lemma of_le_le32 n : n < 4294967296 -> of_le (le32 n) = n.
Proof. apply of_be_be32. Qed.

Lemma of_be_be64 n : n < 18446744073709551616 -> of_be (be64 n) = n.
Proof. apply (of_be_be_n 8). Qed.

Lemma length_be_n k n : length (be_n k n) = k.
Proof. revert n. induction k as [|k IH]; intros n; cbn [be_n]; [reflexivity|]. rewrite app_length, IH. cbn. lia. Qed.

Lemma length_be16 n : length (be16 n) = 2%nat. Proof. reflexivity. Qed.
Lemma length_be24 n : length (be24 n) = 3%nat. Proof. reflexivity. Qed.
Lemma length_be32 n : length (be32 n) = 4%nat. Proof. reflexivity. Qed.
Lemma length_le32 n : length (le32 n) = 4%nat. Proof. reflexivity. Qed.
Lemma length_be64 n : length (be64 n) = 8%nat. Proof. apply length_be_n. Qed.
