(* The driving loop's fuel is adequate: drain / feed / feed_all never report DrvFuel.  Every completed message
   costs at least one byte of the buffer (or the pending stage), so the number of calls is bounded by the buffer. *)
From Coq Require Import ZArith Lia ZifyN ZifyBool ZifyNat.
From RML Require Import Model.Base Model.ChunkDe Proofs.ChunkDeStages Proofs.ChunkDeProofs.
Local Open Scope N_scope.

Definition pending (s : stage) : nat := match s with StCsid => 0 | _ => 1 end.
Definition nu (st : dstate) : nat := (length (d_buf st) + pending (d_stage st))%nat.

Lemma nu_step st st' om : run_stage st = Ok (Success, st', om) -> (nu st' + (if om then 1 else 0) <= nu st)%nat.
Proof.
  intros H. destruct (stage_consumes _ _ _ H) as [b [Hb [Hs [Hne Hom]]]]. unfold nu. rewrite Hb, Hs, app_length.
  destruct (stage_eq_dec (d_stage st) StMessagePayload) as [E|E].
  - (* only the payload stage completes a message, and it leaves nothing pending *)
    rewrite E. cbn [next_stage pending]. destruct om; lia.
  - destruct (Hom E) as [-> _]. destruct (d_stage st); cbn [next_stage pending]; try lia.
    destruct b; [contradiction Hne; reflexivity|cbn [length]; lia].
Qed.

Lemma loop_msg_cost f : forall st st' m, stage_loop f st = (st', DMsg m) -> (nu st' < nu st)%nat.
Proof.
  induction f as [|f IH]; intros st st' m H; cbn [stage_loop] in H; [discriminate|].
  destruct (run_stage st) as [[[r st1] om]|e|x|] eqn:Er; try discriminate.
  destruct r; [|destruct (stage_blocked _ _ _ Er) as [_ ->]; discriminate]. apply nu_step in Er.
  destruct om as [m1|]; [injection H as <- <-|specialize (IH _ _ _ H)]; lia.
Qed.

Lemma driver_apply_nu s m s2 : driver_apply s m = Ok s2 -> nu s2 = nu s.
Proof.
  destruct (driver_apply_spec m) as [H|[[n H]|H]]; rewrite H; [| |discriminate]; intros E; injection E as <-; reflexivity.
Qed.

Lemma drain_fuel_adequate fuel : forall s acc, (nu s < fuel)%nat -> snd (drain fuel s acc) <> Some DrvFuel.
Proof.
  induction fuel as [|f IH]; intros s acc Hn; [lia|]. cbn [drain].
  pose proof (get_next_message_terminates s []) as Ht.
  destruct (get_next_message s []) as [s1 res] eqn:Eg. cbn [snd] in Ht. destruct res as [m| |e|]; try (cbn; discriminate); [|contradiction].
  unfold get_next_message in Eg. apply loop_msg_cost in Eg.
  assert (Hn1 : (nu s1 < nu s)%nat).
  { unfold nu in *. cbn [d_buf d_stage set_buf] in Eg. rewrite app_nil_r in Eg. exact Eg. }
  destruct (driver_apply s1 m) as [s2|e|x|] eqn:Ed; try (cbn; discriminate).
  apply IH. rewrite (driver_apply_nu _ _ _ Ed). lia.
Qed.

Lemma feed_fuel_adequate s piece acc : snd (feed s piece acc) <> Some DrvFuel.
Proof.
  unfold feed. apply drain_fuel_adequate. unfold nu. cbn [d_buf d_stage set_buf]. rewrite app_length.
  destruct (d_stage s); cbn [pending]; lia.
Qed.

Theorem feed_all_fuel_adequate pieces : forall s acc, snd (feed_all s pieces acc) <> Some DrvFuel.
Proof.
  induction pieces as [|p r IH]; intros s acc; cbn [feed_all]; [cbn; discriminate|].
  pose proof (feed_fuel_adequate s p acc) as Hf.
  destruct (feed s p acc) as [[s1 ms1] r1]. cbn [snd] in Hf. destruct r1 as [e|]; [exact Hf|apply IH].
Qed.
