(* C10: an answer the client refuses leaves the workflow state alone.  A createStream result that carries no stream number is
   refused with an error and only consumes its transaction: the session stays in the state it was in, no stream becomes
   active, nothing is sent. *)
From Coq Require Import String.
From RML Require Import Model.Base Model.Amf0 Model.Chunk Model.Messages Model.Float Model.SessionCommon Model.Client Proofs.ChunkSpecProofs.
Local Open Scope N_scope.

Definition no_stream_number (args : list value) : Prop := forall x rest, args <> VNumber x :: rest.

Lemma create_stream_result_without_number c tr obj args clock p :
  lookup (f64_to_u32 tr) (cl_trs c) = Some (TCreateStream p) -> no_stream_number args ->
  exists c', ch_result c tr obj args clock = (c', CErr CNoStreamNumber) /\
    cl_state c' = cl_state c /\ cl_stream c' = cl_stream c /\ cl_app c' = cl_app c /\ cl_ser c' = cl_ser c /\
    cl_de c' = cl_de c /\ cl_ack c' = cl_ack c /\ cl_next_tr c' = cl_next_tr c /\
    lookup (f64_to_u32 tr) (cl_trs c') = None.
Proof.
  intros Hl Hn. unfold ch_result, take_transaction. rewrite Hl.
  eexists. split.
  - destruct args as [|[x| | | | | |] rest]; try reflexivity. exfalso. exact (Hn x rest eq_refl).
  - cbn. repeat split; try reflexivity. apply lookup_remove_same.
Qed.

Lemma create_stream_error_refused c tr obj args p :
  lookup (f64_to_u32 tr) (cl_trs c) = Some (TCreateStream p) ->
  exists c', ch_error c tr obj args = (c', CErr CCreateStreamFailed) /\
    cl_state c' = cl_state c /\ cl_stream c' = cl_stream c /\ cl_app c' = cl_app c /\ cl_ser c' = cl_ser c /\
    lookup (f64_to_u32 tr) (cl_trs c') = None.
Proof.
  intros Hl. unfold ch_error, take_transaction. rewrite Hl. eexists. split; [reflexivity|].
  cbn. repeat split; try reflexivity. apply lookup_remove_same.
Qed.

Example no_stream_number_examples : no_stream_number [] /\ no_stream_number [VNull; VNumber 4607182418800017408] /\ no_stream_number [VString (str "1")].
Proof. repeat split; intros x rest H; discriminate H. Qed.

(* an onStatus message can do exactly three things: nothing to the session (unknown code reported, malformed or out-of-state status
   refused), PlayRequested -> Playing, PublishRequested -> Publishing *)
Lemma status_effect c args c' r :
  ch_status c args = (c', r) ->
  c' = c \/
  (cl_state c = PlayRequested /\ c' = cupd_state c Playing /\ r = COk [CEvent CPlaybackAccepted]) \/
  (cl_state c = PublishRequested /\ c' = cupd_state c Publishing /\ r = COk [CEvent CPublishAccepted]).
Proof.
  unfold ch_status. intros H.
  destruct args as [|[x| | |ps| | |] rest]; try (injection H as <- _; left; reflexivity).
  destruct (prop_get (str "code") ps) as [[x| |code| | | |]|]; try (injection H as <- _; left; reflexivity).
  destruct (bytes_eqb code (str "NetStream.Play.Start")).
  - destruct (cl_state c) eqn:Es; injection H as <- <-; try (left; reflexivity). right. left. repeat split.
  - destruct (bytes_eqb code (str "NetStream.Publish.Start")).
    + destruct (cl_state c) eqn:Es; injection H as <- <-; try (left; reflexivity). right. right. repeat split.
    + injection H as <- _. left. reflexivity.
Qed.

Lemma status_malformed c args :
  (forall ps rest code, args = VObject ps :: rest -> prop_get (str "code") ps <> Some (VString code)) ->
  ch_status c args = (c, CErr CInvalidOnStatus).
Proof.
  intros H. unfold ch_status.
  destruct args as [|[x| | |ps| | |] rest]; try reflexivity.
  destruct (prop_get (str "code") ps) as [[x| |code| | | |]|] eqn:E; try reflexivity.
  exfalso. exact (H ps rest code eq_refl E).
Qed.

(* an _error answer never advances the workflow, whatever transaction it names (outstanding connect, outstanding createStream,
   none); at most the named transaction is consumed *)
Lemma error_effect c tr obj args c' r :
  ch_error c tr obj args = (c', r) ->
  cl_state c' = cl_state c /\ cl_stream c' = cl_stream c /\ cl_app c' = cl_app c /\ cl_ser c' = cl_ser c /\
  cl_de c' = cl_de c /\ cl_ack c' = cl_ack c /\ cl_next_tr c' = cl_next_tr c /\
  (forall k, k <> f64_to_u32 tr -> lookup k (cl_trs c') = lookup k (cl_trs c)).
Proof.
  unfold ch_error, take_transaction. intros H.
  destruct (lookup (f64_to_u32 tr) (cl_trs c)) as [[app|p]|] eqn:El; injection H as <- _; [| |repeat split; reflexivity].
  all: cbn; repeat split; try reflexivity. all: intros k Hk; apply lookup_remove_other; exact Hk.
Qed.
