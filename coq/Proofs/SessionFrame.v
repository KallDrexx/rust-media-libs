(* Frame properties of the session models.  Message handlers never touch the deserializer (except Set Chunk Size, which
   changes only its chunk size), so the message loop of handle_input always ends within its fuel.  A serializer with a usable
   chunk size refuses a message only with a declared error, and keeps such a chunk size; so no public call of either session,
   in any history, ends in a panic.  Both are read off ServerProofs.handled and ClientProofs.chandled. *)
From Coq Require Import ZArith Lia ZifyN ZifyBool ZifyNat.
From RML Require Import Model.Base Model.Time Model.Chunk Model.ChunkSer Model.ChunkDe Model.Amf0 Model.Messages Model.SessionCommon
  Model.Server Model.Client Gen.Consts Proofs.BaseProofs Proofs.ChunkDeProofs Proofs.ChunkDeFuel Proofs.Amf0Proofs Proofs.TotalProofs
  Proofs.ConfigProofs Proofs.InteropProofs Proofs.MessageLoop Proofs.SessionSend Proofs.ServerProofs Proofs.ClientProofs.
Local Open Scope N_scope.

Lemma one_packet_de s m ts sid f d : sv_de (fst (one_packet s m ts sid f d)) = sv_de s.
Proof. destruct (run_ser [ISend m ts sid f d] s []) as [ser' E]. exact (f_equal sv_de E). Qed.

Lemma cmoves_io sid s s1 : cmoves sid s s1 -> sv_ser s1 = sv_ser s /\ sv_de s1 = sv_de s /\ sv_ack s1 = sv_ack s.
Proof. intros []; repeat split; reflexivity. Qed.

Lemma handled_cmoves_de sid clock s ser de a c c' : handled (placed (cmoves sid s) ser de a) sid clock c c' -> sv_de (fst c) = sv_de s.
Proof. intros Hh. apply (handled_lift _ _ _ (fun x => sv_de x = sv_de s) _ _ (fun _ _ E => E) Hh). intros s1 s2 [H1 _]. apply (cmoves_io _ _ _ H1). Qed.

Lemma h_command_de s sid name tr obj args clock : sv_de (fst (h_command s sid name tr obj args clock)) = sv_de s.
Proof. apply (handled_cmoves_de sid clock s (sv_ser s) (sv_de s) (sv_ack s) _ _ (h_command_handled _ _ _ _ _ _ name tr obj args)). Qed.
Lemma h_data_de s vs sid : sv_de (fst (h_data s vs sid)) = sv_de s.
Proof. apply (handled_cmoves_de sid 0 s (sv_ser s) (sv_de s) (sv_ack s) _ _ (h_data_handled _ _ _ _ _ _ vs)). Qed.
Lemma h_media_de a s d sid ts : sv_de (fst (h_media a s d sid ts)) = sv_de s.
Proof. apply (handled_cmoves_de sid 0 s (sv_ser s) (sv_de s) (sv_ack s) _ _ (h_media_handled _ _ _ _ _ _ a d ts)). Qed.

Lemma h_message_de s p clock :
  sv_de (fst (h_message s p clock)) = sv_de s \/
  (exists n, de_set_max_chunk_size (sv_de s) n = Ok (sv_de (fst (h_message s p clock)))).
Proof.
  apply (handled_lift _ _ _ (fun x => sv_de x = sv_de s \/ exists n, de_set_max_chunk_size (sv_de s) n = Ok (sv_de x))
           _ _ (fun _ _ E => E) (h_message_handled1 s p clock)).
  intros s1 s2 [? ? [Hc _]|n d d2 E _|n]; [left; apply (cmoves_io _ _ _ Hc)|right; exists n; exact E|left; reflexivity].
Qed.

Lemma obind_total {A B E} (o : outcome A E) (f : A -> outcome B E) :
  is_value_or_error o -> (forall a, is_value_or_error (f a)) -> is_value_or_error (obind o f).
Proof. destruct o; cbn; auto. Qed.

Lemma encode_value_total v : is_value_or_error (encode_value v).
Proof.
  induction v as [b|b|s|ps IH|vs IH| |] using value_ind2; try exact I.
  - cbn [encode_value]. destruct (u16_max <? lenN s); exact I.
  - cbn [encode_value]. apply obind_total; [|intros; exact I].
    induction IH as [|[name pv] r Hp _ IHr]; [exact I|]. cbn [snd] in Hp.
    destruct (u16_max <? lenN name); [exact I|]. destruct (lenN name =? 0); [exact I|].
    apply obind_total; [exact Hp|]. intros bv. apply obind_total; [exact IHr|intros; exact I].
  - cbn [encode_value]. apply obind_total; [|intros; exact I].
    induction IH as [|x r Hx _ IHr]; [exact I|].
    apply obind_total; [exact Hx|]. intros bx. apply obind_total; [exact IHr|intros; exact I].
Qed.

Lemma amf0_serialize_total vs : is_value_or_error (Amf0.serialize vs).
Proof.
  unfold Amf0.serialize. induction vs as [|x r IH]; [exact I|]. cbn [encode_values].
  apply obind_total; [apply encode_value_total|]. intros bx. apply obind_total; [exact IH|intros; exact I].
Qed.

Lemma to_payload_total m : is_value_or_error (to_payload m).
Proof.
  unfold to_payload. apply obind_total; [|intros; exact I].
  destruct m as [t d|n|n|name tr obj args|vs|d|n|n lt|ev sid bl ts|d|n]; cbn [message_body]; try exact I.
  - pose proof (amf0_serialize_total (VString name :: VNumber tr :: obj :: args)) as H.
    destruct (Amf0.serialize _); try exact I; contradiction.
  - pose proof (amf0_serialize_total vs) as H. destruct (Amf0.serialize _); try exact I; contradiction.
  - destruct (MAX_CHUNK_SIZE_MSG <? n); exact I.
  - destruct ev; exact I.
Qed.

(* the payload can be built and is no longer than the 24-bit length field of a chunk header can say *)
Definition fits (m : rtmp_message) : bool :=
  match to_payload m with Ok (_, body) => lenN body <=? 16777215 | _ => false end.

(* under ser_ok, whether send_message succeeds, and with which error it fails, is decided by the message alone *)
Lemma send_message_verdict m ts sid f d :
  if fits m then forall ser, ser_ok ser -> exists b ser', send_message ser m ts sid f d = Ok (b, ser') /\ ser_ok ser'
  else exists e, forall ser, ser_ok ser -> send_message ser m ts sid f d = Err e.
Proof.
  unfold fits, send_message. pose proof (to_payload_total m) as Ht.
  destruct (to_payload m) as [[tid body]|e|x|]; try contradiction; [|exists (WMsgSer e); reflexivity].
  set (msg := {| m_ts := ts; m_tid := tid; m_sid := sid; m_data := body |}).
  destruct (lenN body <=? 16777215) eqn:E.
  - intros ser Hs. destruct (proj2 (serialize_refused_or_ok ser msg f d Hs) ltac:(cbn [m_data msg]; lia)) as [b [ser' [-> Hm]]].
    exists b, ser'. split; [reflexivity|]. unfold ser_ok in *. lia.
  - eexists. intros ser Hs. rewrite (proj1 (serialize_refused_or_ok ser msg f d Hs) ltac:(cbn [m_data msg]; lia)). reflexivity.
Qed.

Lemma send_message_total ser m ts sid f d : ser_ok ser ->
  match send_message ser m ts sid f d with
  | Ok (_, ser') => ser_ok ser'
  | Err _ => True
  | Panic _ | OutOfFuel => False
  end.
Proof.
  intros Hs. pose proof (send_message_verdict m ts sid f d) as H. destruct (fits m).
  - destruct (H ser Hs) as [b [ser' [-> K]]]. exact K.
  - destruct H as [e H]. rewrite (H ser Hs). exact I.
Qed.

Lemma ack_send_ok ser n clock : ser_ok ser ->
  exists b ser', send_message ser (MAcknowledgement n) clock 0 false false = Ok (b, ser') /\ ser_ok ser'.
Proof. exact (send_message_verdict (MAcknowledgement n) clock 0 false false ser). Qed.

Lemma set_max_total ser n ts : ser_ok ser ->
  match ChunkSer.set_max_chunk_size ser n ts with
  | Ok (_, ser') => ser_ok ser'
  | Err _ => True
  | Panic _ | OutOfFuel => False
  end.
Proof.
  intros Hs. destruct (ser_chunk_size_refused ser n ts Hs) as [Hbad Hok].
  destruct ((n =? 0) || (2147483647 <? n)) eqn:E.
  - rewrite Hbad by lia. exact I.
  - destruct (Hok ltac:(lia)) as [b [st' [-> Hm]]]. unfold ser_ok. lia.
Qed.

(* what every call keeps of a session whose serializer is ser_ok *)
Definition good (c : call) : Prop := snd c <> RPanic /\ ser_ok (sv_ser (fst c)).

Lemma good_ok s rs : ser_ok (sv_ser s) -> good (s, ROk rs).
Proof. intros H. split; [discriminate|exact H]. Qed.
Lemma good_err s e : ser_ok (sv_ser s) -> good (s, RErr e).
Proof. intros H. split; [discriminate|exact H]. Qed.

Lemma run_good plan : forall s acc, ser_ok (sv_ser s) -> good (run s plan acc).
Proof.
  induction plan as [|[m ts sid f d|n ts|e] r IH]; intros s acc Hs; cbn [run].
  - apply good_ok, Hs.
  - unfold sending. pose proof (send_message_total (sv_ser s) m ts sid f d Hs) as H.
    destruct (send_message _ _ _ _ _ _) as [[b ser']|e|x|]; try contradiction; [apply IH, H|apply good_err, Hs].
  - pose proof (set_max_total (sv_ser s) n ts Hs) as H.
    destruct (ChunkSer.set_max_chunk_size _ _ _) as [[b ser']|e|x|]; try contradiction; [apply IH, H|apply good_err, Hs].
  - apply IH, Hs.
Qed.

Lemma handled_good M sid clock c c' : handled M sid clock c c' -> (forall s1 s2, M s1 s2 -> ser_ok (sv_ser s1)) -> good c.
Proof. intros [s1 s2 e H1|s1 s2 plan acc H1 _ _] HM; [apply good_err|apply run_good]; apply (HM _ _ H1). Qed.

Lemma moves_ser sid s ser de a s1 s2 : moves sid s ser de a s1 s2 -> sv_ser s1 = sv_ser s.
Proof. intros [? ? [Hc _]|n d d2 _ _|n]; [apply (cmoves_io _ _ _ Hc)|reflexivity..]. Qed.

Lemma h_message_good s p clock : ser_ok (sv_ser s) -> good (h_message s p clock).
Proof.
  intros Hs. apply (handled_good _ _ _ _ _ (h_message_handled1 s p clock)). intros s1 s2 Hm. rewrite (moves_ser _ _ _ _ _ _ _ Hm). exact Hs.
Qed.

Lemma de_set_max_nu d n d' : de_set_max_chunk_size d n = Ok d' -> nu d' = nu d.
Proof. unfold de_set_max_chunk_size. destruct (_ || _); [discriminate|]. intros H. injection H as <-. reflexivity. Qed.

Lemma h_message_nu s p clock : nu (sv_de (fst (h_message s p clock))) = nu (sv_de s).
Proof.
  destruct (h_message_de s p clock) as [-> | [n E]]; [reflexivity|]. apply (de_set_max_nu _ _ _ E).
Qed.

(* The fuel is never used up: every message the deserializer delivers lowers nu (loop_msg_cost) and the handler keeps it
   (h_message_nu), so each turn of the loop costs a unit of a budget that handle_input sets above nu (nu_ext_fuel). *)
Lemma h_loop_good fuel : forall s input clock acc,
  ser_ok (sv_ser s) -> (nu (ext (sv_de s) input) < fuel)%nat -> good (h_loop fuel s input clock acc).
Proof.
  induction fuel as [|f IH]; intros s input clock acc Hs Hn; [lia|]. cbn [h_loop].
  pose proof (get_next_message_terminates (sv_de s) input) as Ht.
  destruct (get_next_message (sv_de s) input) as [d res] eqn:Eg. cbn [snd] in Ht.
  destruct res as [p| |e|]; [| apply good_ok; exact Hs | apply good_err; exact Hs | contradiction].
  pose proof (h_message_good (upd_de s d) p clock Hs) as [Hg1 Hg2].
  pose proof (h_message_nu (upd_de s d) p clock) as Hnu. change (sv_de (upd_de s d)) with d in Hnu.
  destruct (h_message (upd_de s d) p clock) as [s1 r]. cbn [fst snd] in *.
  destruct r as [rs|e|]; [|split; [discriminate|exact Hg2]|contradiction].
  apply IH; [exact Hg2|].
  unfold get_next_message in Eg. apply loop_msg_cost in Eg. fold (ext (sv_de s) input) in Eg.
  rewrite ext_nil. lia.
Qed.

Lemma server_handle_input_loop s input clock : ser_ok (sv_ser s) ->
  exists ser0 acc0,
    server_handle_input s input clock =
      h_loop (S (S (length (d_buf (sv_de s)) + length input)))
        (upd_ack (upd_ser s ser0) (fst (ack_step (sv_ack s) (lenN input)))) input clock acc0 /\
    ser_ok ser0 /\
    match snd (ack_step (sv_ack s) (lenN input)) with
    | None => ser0 = sv_ser s /\ acc0 = []
    | Some n => exists b, send_message (sv_ser s) (MAcknowledgement n) clock 0 false false = Ok (b, ser0) /\ acc0 = [SPacket b false]
    end.
Proof.
  intros Hs. unfold server_handle_input. destruct (ack_step (sv_ack s) (lenN input)) as [a [n|]]; cbn [fst snd].
  - destruct (ack_send_ok (sv_ser s) n clock Hs) as [b [ser' [E Hs']]].
    rewrite E. exists ser', [SPacket b false]. split; [reflexivity|]. split; [exact Hs'|]. exists b. split; reflexivity.
  - exists (sv_ser s), []. rewrite upd_ser_same. split; [reflexivity|]. split; [exact Hs|]. split; reflexivity.
Qed.

Theorem server_handle_input_good s input clock : ser_ok (sv_ser s) -> good (server_handle_input s input clock).
Proof.
  intros Hs. destruct (server_handle_input_loop s input clock Hs) as [ser0 [acc0 [-> [Hs0 _]]]].
  apply h_loop_good; [exact Hs0|apply nu_ext_fuel].
Qed.

Lemma amoves_io s s1 : amoves s s1 -> sv_ser s1 = sv_ser s /\ sv_de s1 = sv_de s /\ sv_ack s1 = sv_ack s.
Proof. induction 1 as [|id r El|s0 app _ IH|s0 sid st st' _ IH Es]; try exact IH; repeat split; reflexivity. Qed.

Lemma server_step_good s op : ser_ok (sv_ser s) -> good (server_step s op).
Proof.
  intros Hs. destruct (is_input op) eqn:Eo.
  - destruct op; try discriminate Eo. apply server_handle_input_good; exact Hs.
  - apply (handled_good _ _ _ _ _ (server_call_handled s op Eo)). intros s1 s2 Ha. destruct (amoves_io s s1 Ha) as [-> _]. exact Hs.
Qed.

Theorem server_new_good c clock : good (server_new c clock).
Proof. apply (handled_good _ _ _ _ _ (server_new_handled c clock)). intros s1 s2 <-. exact ser_init_max. Qed.

(* every public call of a server session, in every state reachable from ServerSession::new by any history of inputs and
   application calls, returns results or a declared error: the model never reaches a panic site or exhausts a loop's fuel *)
Theorem server_never_panics c clock ops op :
  snd (server_new c clock) <> RPanic /\
  snd (server_step (server_run (fst (server_new c clock)) ops) op) <> RPanic.
Proof.
  pose proof (server_new_good c clock) as [H0 H1]. split; [exact H0|].
  assert (Hr : forall ops s, ser_ok (sv_ser s) -> ser_ok (sv_ser (server_run s ops))).
  { induction ops0 as [|o r IH]; intros s Hs; [exact Hs|]. cbn [server_run]. apply IH. apply (server_step_good s o Hs). }
  apply (server_step_good _ op (Hr ops _ H1)).
Qed.

Definition cgood (c : ccall) : Prop := snd c <> CPanic /\ ser_ok (cl_ser (fst c)).

Lemma cgood_ok c rs : ser_ok (cl_ser c) -> cgood (c, COk rs).
Proof. intros H. split; [discriminate|exact H]. Qed.
Lemma cgood_err c e : ser_ok (cl_ser c) -> cgood (c, CErr e).
Proof. intros H. split; [discriminate|exact H]. Qed.

Lemma crun_good plan : forall c acc, ser_ok (cl_ser c) -> cgood (crun c plan acc).
Proof.
  induction plan as [|[m ts sid f d|n ts|e] r IH]; intros c acc Hs; cbn [crun].
  - apply cgood_ok, Hs.
  - unfold csending. pose proof (send_message_total (cl_ser c) m ts sid f d Hs) as H.
    destruct (send_message _ _ _ _ _ _) as [[b ser']|e|x|]; try contradiction; [apply IH, H|apply cgood_err, Hs].
  - pose proof (set_max_total (cl_ser c) n ts Hs) as H.
    destruct (ChunkSer.set_max_chunk_size _ _ _) as [[b ser']|e|x|]; try contradiction; [apply IH, H|apply cgood_err, Hs].
  - apply IH, Hs.
Qed.

Lemma chandled_good M P clock c c' : chandled M P clock c c' -> (forall c1 c2, M c1 c2 -> ser_ok (cl_ser c1)) -> cgood c.
Proof. intros [c1 c2 e H1|c1 c2 plan acc H1 _ _] HM; [apply cgood_err|apply crun_good]; apply (HM _ _ H1). Qed.

Lemma cl_moved_io c c' c1 c2 : cl_moved c c' c1 c2 -> cl_ser c1 = cl_ser c /\ cl_de c1 = cl_de c /\ cl_ack c1 = cl_ack c.
Proof. induction 1; [repeat split; reflexivity|assumption..]. Qed.

Lemma cl_moves_ser c ser de a c1 c2 : cl_moves c ser de a c1 c2 -> cl_ser c1 = cl_ser c.
Proof. intros [? ? Hc|n d d2 _ _|n]; [apply (cl_moved_io _ _ _ _ Hc)|reflexivity..]. Qed.

Lemma cone_packet_de c m ts sid d : cl_de (fst (cone_packet c m ts sid d)) = cl_de c.
Proof. destruct (crun_ser [ISend m ts sid false d] c []) as [ser' E]. exact (f_equal cl_de E). Qed.

Lemma chandled_moved_de P clock c c' cl cl' : chandled (cl_moved c c') P clock cl cl' -> cl_de (fst cl) = cl_de c.
Proof. intros Hh. apply (chandled_lift _ _ _ (fun x => cl_de x = cl_de c) _ _ (fun _ _ E => E) Hh). intros c1 c2 H1. apply (cl_moved_io _ _ _ _ H1). Qed.

Lemma ch_media_de v c sid d ts : cl_de (fst (ch_media v c sid d ts)) = cl_de c.
Proof. exact (chandled_moved_de _ _ _ _ _ _ (ch_media_handled c 0 (cl_ser c) (cl_de c) (cl_ack c) v sid d ts)). Qed.
Lemma ch_data_de c vs sid : cl_de (fst (ch_data c vs sid)) = cl_de c.
Proof. exact (chandled_moved_de _ _ _ _ _ _ (ch_data_handled c 0 (cl_ser c) (cl_de c) (cl_ack c) vs sid)). Qed.
Lemma ch_command_de c name tr obj args clock : cl_de (fst (ch_command c name tr obj args clock)) = cl_de c.
Proof. exact (chandled_moved_de _ _ _ _ _ _ (ch_command_handled c clock (cl_ser c) (cl_de c) (cl_ack c) name tr obj args)). Qed.

Lemma ch_message_de c p clock :
  cl_de (fst (ch_message c p clock)) = cl_de c \/
  (exists n, de_set_max_chunk_size (cl_de c) n = Ok (cl_de (fst (ch_message c p clock)))).
Proof.
  apply (chandled_lift _ _ _ (fun x => cl_de x = cl_de c \/ exists n, de_set_max_chunk_size (cl_de c) n = Ok (cl_de x))
           _ _ (fun _ _ E => E) (ch_message_handled1 c p clock)).
  intros c1 c2 [? ? Hc|n d d2 E _|n]; [left; apply (cl_moved_io _ _ _ _ Hc)|right; exists n; exact E|left; reflexivity].
Qed.

Lemma ch_message_nu c p clock : nu (cl_de (fst (ch_message c p clock))) = nu (cl_de c).
Proof. destruct (ch_message_de c p clock) as [-> | [n E]]; [reflexivity|]. apply (de_set_max_nu _ _ _ E). Qed.

Lemma ch_message_good c p clock : ser_ok (cl_ser c) -> cgood (ch_message c p clock).
Proof.
  intros Hs. apply (chandled_good _ _ _ _ _ (ch_message_handled1 c p clock)). intros c1 c2 Hm. rewrite (cl_moves_ser _ _ _ _ _ _ Hm). exact Hs.
Qed.

Lemma ch_loop_good fuel : forall c input clock acc,
  ser_ok (cl_ser c) -> (nu (ext (cl_de c) input) < fuel)%nat -> cgood (ch_loop fuel c input clock acc).
Proof.
  induction fuel as [|f IH]; intros c input clock acc Hs Hn; [lia|]. cbn [ch_loop].
  pose proof (get_next_message_terminates (cl_de c) input) as Ht.
  destruct (get_next_message (cl_de c) input) as [d res] eqn:Eg. cbn [snd] in Ht.
  destruct res as [p| |e|]; [| apply cgood_ok; exact Hs | apply cgood_err; exact Hs | contradiction].
  pose proof (ch_message_good (cupd_de c d) p clock Hs) as [Hg1 Hg2].
  pose proof (ch_message_nu (cupd_de c d) p clock) as Hnu. change (cl_de (cupd_de c d)) with d in Hnu.
  destruct (ch_message (cupd_de c d) p clock) as [c1 r]. cbn [fst snd] in *.
  destruct r as [rs|e|]; [|split; [discriminate|exact Hg2]|contradiction].
  apply IH; [exact Hg2|].
  unfold get_next_message in Eg. apply loop_msg_cost in Eg. fold (ext (cl_de c) input) in Eg.
  rewrite ext_nil. lia.
Qed.

Lemma client_handle_input_loop c input clock : ser_ok (cl_ser c) ->
  exists ser0 acc0,
    client_handle_input c input clock =
      ch_loop (S (S (length (d_buf (cl_de c)) + length input)))
        (cupd_ack (cupd_ser c ser0) (fst (ack_step (cl_ack c) (lenN input)))) input clock acc0 /\
    ser_ok ser0 /\
    match snd (ack_step (cl_ack c) (lenN input)) with
    | None => ser0 = cl_ser c /\ acc0 = []
    | Some n => exists b, send_message (cl_ser c) (MAcknowledgement n) clock 0 false false = Ok (b, ser0) /\ acc0 = [CPacket b false]
    end.
Proof.
  intros Hs. unfold client_handle_input. destruct (ack_step (cl_ack c) (lenN input)) as [a [n|]]; cbn [fst snd].
  - destruct (ack_send_ok (cl_ser c) n clock Hs) as [b [ser' [E Hs']]].
    rewrite E. exists ser', [CPacket b false]. split; [reflexivity|]. split; [exact Hs'|]. exists b. split; reflexivity.
  - exists (cl_ser c), []. rewrite cupd_ser_same. split; [reflexivity|]. split; [exact Hs|]. split; reflexivity.
Qed.

Theorem client_handle_input_good c input clock : ser_ok (cl_ser c) -> cgood (client_handle_input c input clock).
Proof.
  intros Hs. destruct (client_handle_input_loop c input clock Hs) as [ser0 [acc0 [-> [Hs0 _]]]].
  apply ch_loop_good; [exact Hs0|apply nu_ext_fuel].
Qed.

Inductive cop :=
| CopInput (input : bytes) (clock : N) | CopConnect (app : bytes) (clock : N) | CopPlay (key : bytes) (clock : N)
| CopPublish (key : bytes) (t : publish_type) (clock : N) | CopStopPlay (clock : N) | CopStopPublish (clock : N) | CopPing (clock : N)
| CopMetadata (md : metadata) (clock : N) | CopMedia (video : bool) (data : bytes) (ts : N) (drop : bool).

Definition client_step (c : client) (op : cop) : ccall :=
  match op with
  | CopInput i k => client_handle_input c i k
  | CopConnect app k => client_request_connection c app k
  | CopPlay key k => client_request_playback c key k
  | CopPublish key t k => client_request_publishing c key t k
  | CopStopPlay k => client_stop_playback c k
  | CopStopPublish k => client_stop_publishing c k
  | CopPing k => client_send_ping c k
  | CopMetadata md k => client_publish_metadata c md k
  | CopMedia v d ts drop => client_publish_media v c d ts drop
  end.

Fixpoint client_run (c : client) (ops : list cop) : client :=
  match ops with [] => c | op :: r => client_run (fst (client_step c op)) r end.

Definition is_cinput (op : cop) : bool := match op with CopInput _ _ => true | _ => false end.

(* the time stamp an application call's packets carry; they go out on stream 0 or on the active stream *)
Definition cop_time (op : cop) : N :=
  match op with
  | CopInput _ k | CopConnect _ k | CopPlay _ k | CopPublish _ _ k | CopStopPlay k | CopStopPublish k | CopPing k | CopMetadata _ k => k
  | CopMedia _ _ ts _ => ts
  end.

Section ClientApi.
  Variable c : client.
  Let handled_at clock cl := chandled (cl_moved c c) (fun i => i = 0 \/ cl_stream c = Some i) clock cl cl.

  Lemma stop_handled clock : handled_at clock (stop c clock).
  Proof. unfold handled_at, stop. cbv zeta. walk; [|cleaf]. apply chandled_one; [auto with moved|reflexivity|right; reflexivity]. Qed.

  (* every call but handle_input: where it sends, it sends one packet, on stream 0 or on the active stream *)
  Theorem client_call_handled op : is_cinput op = false -> handled_at (cop_time op) (client_step c op).
  Proof.
    intros Hop. destruct op as [i k|app k|key k|key t k|k|k|k|md k|v d ts drop]; [discriminate Hop|..]; cbn [client_step cop_time];
      unfold handled_at, client_request_connection, client_request_playback, client_request_publishing, create_stream_request, new_transaction,
        client_stop_playback, client_stop_publishing, client_send_ping, client_publish_metadata, client_publish_media, publishing_stream;
      walk; try cleaf; try apply stop_handled;
      (apply chandled_one; [auto with moved|try destruct v; reflexivity|first [left; reflexivity|right; reflexivity]]).
  Qed.

  Hypothesis Hs : ser_ok (cl_ser c).

  Lemma cl_moved_ser_ok c1 c2 : cl_moved c c c1 c2 -> ser_ok (cl_ser c1).
  Proof. intros Hm. destruct (cl_moved_io _ _ _ _ Hm) as [-> _]. exact Hs. Qed.

  Theorem stop_good clock : cgood (stop c clock).
  Proof. apply (chandled_good _ _ _ _ _ (stop_handled clock) cl_moved_ser_ok). Qed.
End ClientApi.

Lemma client_step_good c op : ser_ok (cl_ser c) -> cgood (client_step c op).
Proof.
  intros Hs. destruct (is_cinput op) eqn:Eo.
  - destruct op; try discriminate Eo. apply client_handle_input_good; exact Hs.
  - apply (chandled_good _ _ _ _ _ (client_call_handled c op Eo) (cl_moved_ser_ok c Hs)).
Qed.

Theorem client_new_ok cfg : ser_ok (cl_ser (client_new cfg)).
Proof. exact ser_init_max. Qed.

Theorem client_never_panics cfg ops op : snd (client_step (client_run (client_new cfg) ops) op) <> CPanic.
Proof.
  assert (Hr : forall ops c, ser_ok (cl_ser c) -> ser_ok (cl_ser (client_run c ops))).
  { induction ops0 as [|o r IH]; intros c Hs; [exact Hs|]. cbn [client_run]. apply IH. apply (client_step_good c o Hs). }
  apply (client_step_good _ op (Hr ops _ (client_new_ok cfg))).
Qed.
