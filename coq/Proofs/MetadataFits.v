(* A metadata message always fits a chunk-layer message: its encoded size is at most a few hundred bytes plus the encoder string. *)
From Coq Require Import Lia String Permutation.
From RML Require Import Model.Base Model.Amf0 Model.Messages Model.SessionCommon Model.Server Model.Client
  Spec.Amf0Wire Proofs.Amf0Proofs Proofs.Amf0Size Proofs.MetadataProofs Proofs.InteropMetadata Proofs.InteropProofs
  Proofs.SessionFrame Proofs.ProtocolFlow.
Import ListNotations.
Local Open Scope N_scope.

Lemma psize_app a b : psize (a ++ b) = psize a + psize b.
Proof. induction a as [|[k x] r IH]; [reflexivity|]. cbn [List.app psize]. rewrite IH. lia. Qed.

Lemma psize_app_le a b na nb : psize a <= na -> psize b <= nb -> psize (a ++ b) <= na + nb.
Proof. rewrite psize_app. lia. Qed.

Lemma psize_perm ps qs : Permutation ps qs -> psize ps = psize qs.
Proof. induction 1 as [|[k1 v1] ps qs HP IH|[k1 v1] [k2 v2] ps|ps qs rs HP1 IH1 HP2 IH2]; cbn [psize]; lia. Qed.

Lemma psize_opt {A} k (o : option A) g n : (forall x, o = Some x -> vsize (g x) <= n) -> psize (opt_prop k o g) <= 2 + lenN (str k) + n.
Proof. intros Hg. destruct o as [x|]; cbn [opt_prop psize]; [specialize (Hg x eq_refl)|]; lia. Qed.

Lemma psize_opt_num k (o : option N) f : psize (opt_prop k o (fun x => VNumber (f x))) <= 2 + lenN (str k) + 9.
Proof. apply psize_opt. intros x _. apply N.le_refl. Qed.

Lemma md_psize_client md : (forall s, md_encoder md = Some s -> lenN s <= 65535) -> psize (metadata_props_client md) <= 66000.
Proof.
  (* entry by entry: nine numbers of 9 bytes, a flag of 2, a string of at most 3 + 65535, and the eleven names; the sum is 65754 *)
  intros He. unfold metadata_props_client. eapply N.le_trans.
  - repeat (apply psize_app_le; [apply psize_opt_num|]). apply psize_app_le.
    + apply (psize_opt _ _ _ 2). intros x _. apply N.le_refl.
    + apply (psize_opt _ _ _ (3 + 65535)). intros s E. cbn [vsize]. apply N.add_le_mono_l. exact (He s E).
  - vm_compute. discriminate.
Qed.

Lemma md_psize_server md : (forall s, md_encoder md = Some s -> lenN s <= 65535) -> psize (metadata_props_server md) <= 66000.
Proof. rewrite <- (psize_perm _ _ (md_props_perm md)). apply md_psize_client. Qed.

Lemma md_values_fit md : enc_ok md -> body_le (MAmf0Data (md_values md)) 16777215.
Proof.
  intros He. apply data_body; unfold md_values.
  - cbn [expressible_all]. rewrite expressible_object, (md_props_expressible md He). reflexivity.
  - pose proof (md_psize_client md (fun s E => proj2 (He s E))) as Hp.
    cbn [vssize]. rewrite vsize_object. cbn [vsize]. rewrite !lenN_str. cbn [String.length]. lia.
Qed.

(* C02_publish_metadata without the error alternative *)
Theorem publish_metadata_always_delivered c s md clock sclock sid app key :
  Link (cl_ser c) (sv_de s) -> ser_ok (cl_ser c) -> ser_ok (sv_ser s) ->
  publishing_stream c = Ok sid -> sid < 4294967296 -> clock < 4294967296 -> md_ok md -> enc_ok md ->
  sv_connected s = true -> publishing_key s sid = Some (app, key) ->
  exists b c' s' rs,
    client_publish_metadata c md clock = (c', COk [CPacket b false]) /\
    server_handle_input s b sclock = (s', ROk rs) /\
    events rs = [EvMetadata app key md] /\
    Link (cl_ser c') (sv_de s') /\ ser_ok (cl_ser c') /\ ser_ok (sv_ser s') /\ publishing_stream c' = Ok sid /\
    sv_connected s' = true /\ publishing_key s' sid = Some (app, key).
Proof.
  intros HL Hcs Hser Hps Hsid Hclk Hm He Hc Hk.
  destruct (publish_metadata_delivered c s md clock sclock sid app key HL Hser Hps Hsid Hclk Hm He Hc Hk)
    as [[e Herr] | [b [c' [s' [rs [E1 [E2 [E3 [E4 [E5 [E6 [E7 E8]]]]]]]]]]]].
  - exfalso. unfold client_publish_metadata in Herr. rewrite Hps in Herr. fold (md_values md) in Herr.
    unfold cone_packet, csending in Herr.
    destruct (send_fits (cl_ser c) (MAmf0Data (md_values md)) clock sid false false _ Hcs (md_values_fit md He) (N.le_refl _)) as [b [ser' [Es _]]].
    rewrite Es in Herr. discriminate Herr.
  - exists b, c', s', rs. split; [exact E1|]. split; [exact E2|]. split; [exact E3|]. split; [exact E4|].
    split. { pose proof (client_step_good c (CopMetadata md clock) Hcs) as [_ Hg]. cbn [client_step] in Hg. rewrite E1 in Hg. exact Hg. }
    split; [exact E5|]. split; [exact E6|]. split; [exact E7|exact E8].
Qed.

Definition smd_values (md : metadata) : list value := [VString (str "onMetaData"); VObject (metadata_props_server md)].

Lemma smd_values_fit md : enc_ok md -> body_le (MAmf0Data (smd_values md)) 16777215.
Proof.
  intros He. apply data_body; unfold smd_values.
  - cbn [expressible_all]. rewrite (md_props_server_expressible md He). reflexivity.
  - pose proof (md_psize_server md (fun s E => proj2 (He s E))) as Hp.
    cbn [vssize]. rewrite vsize_object. cbn [vsize]. rewrite lenN_str. cbn [String.length]. lia.
Qed.

Lemma server_send_metadata_ok s sid md clock : ser_ok (sv_ser s) -> enc_ok md ->
  exists b ser', server_send_metadata s sid md clock = (upd_ser s ser', ROk [SPacket b false]) /\
    send_message (sv_ser s) (MAmf0Data (smd_values md)) clock sid false false = Ok (b, ser') /\ ser_ok ser'.
Proof.
  intros Hss He.
  destruct (send_fits (sv_ser s) (MAmf0Data (smd_values md)) clock sid false false _ Hss (smd_values_fit md He) (N.le_refl _)) as [b [ser' [Es Hs']]].
  exists b, ser'. unfold server_send_metadata, one_packet, sending. fold (smd_values md). rewrite Es. split; [reflexivity|]. split; [reflexivity|exact Hs'].
Qed.
