(* T1 ; T2 ; C15: what the library's serializer writes, the library's deserializer reads back - for every operation
   sequence, every subset of withheld droppable packets and every partition of the bytes into input calls. *)
From Coq Require Import ZArith Lia ZifyN ZifyBool ZifyNat.
From RML Require Import Model.Base Model.Chunk Model.ChunkSer Model.ChunkDe Spec.ChunkSpec
  Proofs.ChunkSerProofs Proofs.ChunkDeProofs Proofs.ChunkDeFuel Proofs.ChunkRefineProofs
  Proofs.InterleaveProofs.
Local Open Scope N_scope.

(* the deserializer on any conformant record stream, with the executable driving loop and no side condition *)
Theorem deserializer_conformance cs sd' ms pieces :
  sdec_run sdec_init cs = Some (sd', ms) -> concat pieces = concat (map emit_chunk cs) ->
  exists s1, feed_all de_init pieces [] = (s1, ms, None).
Proof.
  intros Hrun Hc. pose proof (feed_all_fuel_adequate pieces de_init []) as Hf.
  destruct (feed_all de_init pieces []) as [[s1 ms1] r1] eqn:E. cbn [snd] in Hf.
  destruct (feed_all_refines_sdec cs sd' ms pieces s1 ms1 r1 Hrun Hc E Hf) as [-> ->]. exists s1. reflexivity.
Qed.

(* C01 + C08 + C15 for the library's own pair *)
Theorem roundtrip_any_partition ops keep packets sst' pieces :
  Forall op_wf ops -> ser_run ser_init ops = Ok (packets, sst') -> keep_ok keep ops ->
  concat pieces = concat (select keep packets) ->
  exists s1, feed_all de_init pieces [] = (s1, map op_msg (select keep ops), None).
Proof.
  intros Hwf Hrun Hkeep Hc.
  destruct (run_sim_records ops keep ser_init sdec_init packets sst' Sim_init Hwf Hrun Hkeep) as [cs [dst' [Hb [Hs _]]]].
  apply (deserializer_conformance cs dst' _ pieces Hs). rewrite Hc. exact Hb.
Qed.

Theorem roundtrip_all ops packets sst' pieces :
  Forall op_wf ops -> ser_run ser_init ops = Ok (packets, sst') -> concat pieces = concat packets ->
  exists s1, feed_all de_init pieces [] = (s1, map op_msg ops, None).
Proof.
  intros Hwf Hrun Hc.
  pose proof (roundtrip_any_partition ops (map (fun _ => true) ops) packets sst' pieces Hwf Hrun (keep_all_ok ops)) as H.
  rewrite (select_all ops packets) in H by (apply (ser_run_length _ _ _ _ Hrun)).
  rewrite (select_all ops ops) in H by reflexivity. apply H. exact Hc.
Qed.

(* partition independence without the fuel side conditions *)
Theorem feed_all_partition_independent_total p1 p2 :
  concat p1 = concat p2 ->
  snd (fst (feed_all de_init p1 [])) = snd (fst (feed_all de_init p2 [])) /\
  snd (feed_all de_init p1 []) = snd (feed_all de_init p2 []).
Proof.
  intros Hc. pose proof (feed_all_fuel_adequate p1 de_init []) as H1. pose proof (feed_all_fuel_adequate p2 de_init []) as H2.
  destruct (feed_all de_init p1 []) as [[s1 ms1] r1] eqn:E1. destruct (feed_all de_init p2 []) as [[s2 ms2] r2] eqn:E2.
  cbn [fst snd] in *. apply (feed_all_partition_independent p1 p2 s1 ms1 r1 s2 ms2 r2 Hc E1 E2 H1 H2).
Qed.

Lemma in_somes_pick {A} (m : A) L : forall os, length os = length L -> In m (somes os) -> exists k, In m (somes (pick k L os)).
Proof.
  induction L as [|c r IH]; intros os Hlen Hin; destruct os as [|o os']; try discriminate; [contradiction|].
  cbn [length] in Hlen. assert (Hl : length os' = length r) by lia.
  destruct o as [x|]; cbn [somes] in Hin.
  - destruct Hin as [-> | Hin].
    + exists (c_csid c). cbn [pick]. rewrite N.eqb_refl. cbn [somes]. left; reflexivity.
    + destruct (IH os' Hl Hin) as [k Hk]. exists k. cbn [pick]. destruct (c_csid c =? k); [cbn [somes]; right; exact Hk|exact Hk].
  - destruct (IH os' Hl Hin) as [k Hk]. exists k. cbn [pick]. destruct (c_csid c =? k); [cbn [somes]; exact Hk|exact Hk].
Qed.

(* C16 on the library's deserializer: it returns the messages of the interleaved stream, and those that come from chunk
   stream k are what the chunks of k decode to on their own *)
Theorem interleaved_streams L pieces :
  (forall k, exists stk osk, run_nc sdec_init (proj k L) = Some (stk, osk) /\ Forall (fun m => m_tid m <> 1) (somes osk)) ->
  concat pieces = concat (map emit_chunk L) ->
  exists s1 os, length os = length L /\ feed_all de_init pieces [] = (s1, somes os, None) /\
                forall k, exists stk, run_nc sdec_init (proj k L) = Some (stk, pick k L os).
Proof.
  intros Hall Hc.
  assert (Hall' : forall k, run_nc sdec_init (proj k L) <> None).
  { intros k. destruct (Hall k) as [stk [osk [E _]]]. rewrite E. discriminate. }
  destruct (interleave_local L sdec_init Hall') as [st' [os [Hrun [Hlen Hk]]]].
  assert (Hn : Forall (fun m => m_tid m <> 1) (somes os)).
  { apply Forall_forall. intros m Hin. destruct (in_somes_pick m L os Hlen Hin) as [k Hin2].
    destruct (Hall k) as [stk [osk [E Hf]]]. destruct (Hk k) as [stk' [E' _]]. rewrite E in E'. injection E' as _ ->.
    rewrite Forall_forall in Hf. apply Hf. exact Hin2. }
  destruct (deserializer_conformance L st' (somes os) pieces (run_nc_sdec_run L _ _ _ Hrun Hn) Hc) as [s1 Hs1].
  exists s1, os. split; [exact Hlen|]. split; [exact Hs1|]. intros k. destruct (Hk k) as [stk [E _]]. exists stk. exact E.
Qed.

(* the premises are satisfiable: a 200-byte video message on chunk stream 6 with a 150-byte audio message on chunk
   stream 4 interleaved inside it (chunk size 128) *)
Definition ex_v1 := {| c_fmt := 0; c_csid := 6; c_form := 1; c_field := 40; c_len := 200; c_tid := 9; c_sid := 1; c_payload := repeat 7 128 |}.
Definition ex_a1 := {| c_fmt := 0; c_csid := 4; c_form := 1; c_field := 41; c_len := 150; c_tid := 8; c_sid := 1; c_payload := repeat 9 128 |}.
Definition ex_v2 := {| c_fmt := 3; c_csid := 6; c_form := 1; c_field := 40; c_len := 0; c_tid := 0; c_sid := 0; c_payload := repeat 7 72 |}.
Definition ex_a2 := {| c_fmt := 3; c_csid := 4; c_form := 1; c_field := 41; c_len := 0; c_tid := 0; c_sid := 0; c_payload := repeat 9 22 |}.
Definition ex_L := [ex_v1; ex_a1; ex_v2; ex_a2].

Example interleaved_example :
  snd (fst (feed_all de_init [concat (map emit_chunk ex_L)] [])) =
    [ {| m_ts := 40; m_tid := 9; m_sid := 1; m_data := repeat 7 200 |};
      {| m_ts := 41; m_tid := 8; m_sid := 1; m_data := repeat 9 150 |} ] /\
  run_nc sdec_init (proj 6 ex_L) <> None /\ run_nc sdec_init (proj 4 ex_L) <> None.
Proof. vm_compute. split; [reflexivity|split; discriminate]. Qed.
