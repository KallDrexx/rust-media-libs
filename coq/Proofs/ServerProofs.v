(* The server session.  First `run`, which interprets a plan (SessionSend.plan_item) through the session's serializer, and the
   invariant Inv; then the facts of C09 about the request / stream state machine, each read off its handler; then `handled`,
   the normal form of every message handler and application call: an error, or the run of a plan after a move of the protocol
   fields.  That Inv holds after every call, and the frame, partition and trace results of the Session* files, are read off it. *)
From Coq Require Import String ZArith Lia ZifyN ZifyBool ZifyNat.
From RML Require Import Model.Base Model.Time Model.Amf0 Model.Chunk Model.ChunkSer Model.ChunkDe Model.Messages Model.Float
  Model.SessionCommon Model.Server Proofs.ChunkSpecProofs Proofs.TotalProofs Proofs.SessionSend.
Local Open Scope list_scope.
Local Open Scope N_scope.

(* the part of the session that the protocol state machine is about *)
Definition same_core (s s' : server) : Prop :=
  sv_app s' = sv_app s /\ sv_reqs s' = sv_reqs s /\ sv_next_req s' = sv_next_req s /\ sv_connected s' = sv_connected s /\
  sv_streams s' = sv_streams s /\ sv_next_stream s' = sv_next_stream s /\ sv_objenc s' = sv_objenc s /\ sv_fms s' = sv_fms s.

Lemma same_core_refl s : same_core s s.
Proof. repeat split. Qed.

Lemma one_packet_spec s m ts sid force drop s' r :
  one_packet s m ts sid force drop = (s', r) ->
  same_core s s' /\ sv_de s' = sv_de s /\ sv_ack s' = sv_ack s /\
  ((exists b ser', send_message (sv_ser s) m ts sid force drop = Ok (b, ser') /\ r = ROk [SPacket b drop] /\ sv_ser s' = ser') \/
   (exists e, r = RErr (SWire e) /\ s' = s) \/ (r = RPanic /\ s' = s)).
Proof.
  unfold one_packet, sending. destruct (send_message (sv_ser s) m ts sid force drop) as [[b ser']|e|p|] eqn:E; intros H; injection H as <- <-;
    (split; [repeat split|split; [reflexivity|split; [reflexivity|]]]).
  - left. exists b, ser'. repeat split.
  - right. left. exists e. split; reflexivity.
  - right. right. split; reflexivity.
  - right. right. split; reflexivity.
Qed.

Lemma one_packet_ok s m ts sid force drop s' rs :
  one_packet s m ts sid force drop = (s', ROk rs) -> exists b, rs = [SPacket b drop].
Proof.
  intros H. destruct (one_packet_spec _ _ _ _ _ _ _ _ H) as [_ [_ [_ [[b [_ [_ [Hr _]]]]|[[e [Hr _]]|[Hr _]]]]]]; [|discriminate..].
  injection Hr as ->. exists b. reflexivity.
Qed.

(* a plan run through the session's serializer as the calls of Model/Server.v do it with `sending`: the results accumulate
   behind acc, the first refused operation ends the call and drops them *)
Fixpoint run (s : server) (plan : list (plan_item sevent)) (acc : list sresult) : call :=
  match plan with
  | [] => (s, ROk acc)
  | ISend m ts sid f d :: r => sending s m ts sid f d (fun s' b => run s' r (acc ++ [SPacket b d]))
  | ISize n ts :: r =>
    match ChunkSer.set_max_chunk_size (sv_ser s) n ts with
    | Ok (b, ser') => run (upd_ser s ser') r (acc ++ [SPacket b false])
    | Err e => (s, RErr (SWire (WChunkSer e)))
    | Panic _ | OutOfFuel => (s, RPanic)
    end
  | INote e :: r => run s r (acc ++ [SEvent e])
  end.

Lemma upd_ser_same s : upd_ser s (sv_ser s) = s.
Proof. destruct s; reflexivity. Qed.

Lemma run_frame plan : forall s1 s2 acc, sv_ser s2 = sv_ser s1 ->
  run s2 plan acc = (upd_ser s2 (sv_ser (fst (run s1 plan acc))), snd (run s1 plan acc)).
Proof.
  induction plan as [|[m ts sid f d|n ts|e] r IH]; intros s1 s2 acc E; cbn [run].
  - cbn [fst snd]. rewrite <- E, upd_ser_same. reflexivity.
  - unfold sending. rewrite E. destruct (send_message _ _ _ _ _ _) as [[b ser']|e|x|];
      [apply (IH (upd_ser s1 ser') (upd_ser s2 ser')); reflexivity|cbn [fst snd]; rewrite <- E, upd_ser_same; reflexivity..].
  - rewrite E. destruct (ChunkSer.set_max_chunk_size _ _ _) as [[b ser']|e|x|];
      [apply (IH (upd_ser s1 ser') (upd_ser s2 ser')); reflexivity|cbn [fst snd]; rewrite <- E, upd_ser_same; reflexivity..].
  - apply IH. exact E.
Qed.

Lemma run_ser plan s acc : exists ser', fst (run s plan acc) = upd_ser s ser'.
Proof. eexists. exact (f_equal fst (run_frame plan s s acc eq_refl)). Qed.

Definition keys_below {A} (m : list (N * A)) (n : N) : Prop := forall k v, lookup k m = Some v -> k < n.

(* kept by every call: the request and stream ids in use lie below the counters (so the next ones are fresh), and a connected
   session knows its application name *)
Definition Inv (s : server) : Prop :=
  keys_below (sv_reqs s) (sv_next_req s) /\ keys_below (sv_streams s) (sv_next_stream s) /\
  (sv_connected s = true -> exists app, sv_app s = Some app).

Lemma keys_below_insert {A} (m : list (N * A)) n k v : keys_below m n -> k < n + 1 -> keys_below (insert k v m) (n + 1).
Proof.
  intros H Hk k' v' Hl. destruct (N.eq_dec k' k) as [->|Hne]; [exact Hk|].
  rewrite lookup_insert_other in Hl by exact Hne. specialize (H _ _ Hl). lia.
Qed.

Lemma keys_below_insert_same {A} (m : list (N * A)) n k v : keys_below m n -> k < n -> keys_below (insert k v m) n.
Proof.
  intros H Hk k' v' Hl. destruct (N.eq_dec k' k) as [->|Hne]; [exact Hk|].
  rewrite lookup_insert_other in Hl by exact Hne. exact (H _ _ Hl).
Qed.

Lemma keys_below_remove {A} (m : list (N * A)) n k : keys_below m n -> keys_below (remove k m) n.
Proof.
  intros H k' v' Hl. destruct (N.eq_dec k' k) as [->|Hne]; [rewrite lookup_remove_same in Hl; discriminate|].
  rewrite lookup_remove_other in Hl by exact Hne. exact (H _ _ Hl).
Qed.

Lemma new_request_fresh s r s' n :
  Inv s -> new_request s r = (s', n) ->
  n = sv_next_req s /\ lookup n (sv_reqs s) = None /\ lookup n (sv_reqs s') = Some r /\ sv_next_req s' = n + 1 /\ Inv s'.
Proof.
  intros [I1 [I2 I3]] H. unfold new_request in H. inversion H; subst. cbn.
  split; [reflexivity|]. split.
  - destruct (lookup (sv_next_req s) (sv_reqs s)) eqn:E; [|reflexivity]. specialize (I1 _ _ E). lia.
  - split; [apply lookup_insert_same|]. split; [reflexivity|].
    split; [|split]; cbn; [apply keys_below_insert; [exact I1|lia]|exact I2|exact I3].
Qed.

Definition is_request_event (r : sresult) : bool :=
  match r with SEvent (EvPublishRequested _ _ _ _) | SEvent (EvPlayRequested _ _ _ _ _ _ _) => true | _ => false end.

Lemma one_packet_no_request s m ts sid f d s1 rs :
  existsb is_request_event rs = true -> one_packet s m ts sid f d = (s1, ROk rs) -> False.
Proof. intros H2 H. destruct (one_packet_ok _ _ _ _ _ _ _ _ H) as [b ->]. discriminate H2. Qed.

Lemma h_publish_gate s sid tr args clock s' rs :
  h_publish s sid tr args clock = (s', ROk rs) -> existsb is_request_event rs = true ->
  sv_connected s = true /\ exists app key mode, sv_app s = Some app /\
    rs = [SEvent (EvPublishRequested (sv_next_req s) app key mode)] /\
    lookup (sv_next_req s) (sv_reqs s') = Some (RPublish key mode sid).
Proof.
  unfold h_publish. hide_strings. intros H Hev. pose proof (fun m => one_packet_no_request s m clock sid false false s' rs Hev) as Hbad.
  destruct args as [|a0 [|a1 rest]]; try destruct (Hbad _ H).
  destruct (sv_connected s) eqn:Ec; cbn [negb] in H; [|destruct (Hbad _ H)].
  destruct (sv_app s) as [app|] eqn:Ea; [|destruct (Hbad _ H)].
  destruct a0 as [| |key| | | |]; try destruct (Hbad _ H).
  destruct a1 as [| |raw| | | |]; try destruct (Hbad _ H).
  destruct (mode_of raw) as [mode|] eqn:Em; [|destruct (Hbad _ H)].
  unfold new_request in H. injection H as <- <-. split; [reflexivity|]. exists app, key, mode.
  split; [reflexivity|]. split; [reflexivity|]. apply lookup_insert_same.
Qed.

Lemma h_play_gate s sid tr args clock s' rs :
  h_play s sid tr args clock = (s', ROk rs) -> existsb is_request_event rs = true ->
  sv_connected s = true /\ exists app key, sv_app s = Some app /\
    lookup (sv_next_req s) (sv_reqs s') = Some (RPlay key sid) /\
    exists start dur reset, rs = [SEvent (EvPlayRequested (sv_next_req s) app key start dur reset sid)].
Proof.
  unfold h_play. hide_strings. intros H Hev. pose proof (fun m => one_packet_no_request s m clock sid false false s' rs Hev) as Hbad.
  destruct args as [|a0 rest]; [destruct (Hbad _ H)|].
  destruct (sv_connected s) eqn:Ec; cbn [negb] in H; [|destruct (Hbad _ H)].
  destruct (sv_app s) as [app|] eqn:Ea; [|destruct (Hbad _ H)].
  destruct a0 as [| |key| | | |]; try destruct (Hbad _ H).
  unfold new_request in H. injection H as <- <-. split; [reflexivity|]. exists app, key.
  split; [reflexivity|]. split; [apply lookup_insert_same|]. eexists. eexists. eexists. reflexivity.
Qed.

Lemma h_publish_not_connected s sid tr args clock s' r :
  sv_connected s = false -> h_publish s sid tr args clock = (s', r) ->
  exists m, one_packet s m clock sid false false = (s', r) /\
            match m with MAmf0Command name _ _ _ => name = str "_error" | _ => False end.
Proof.
  intros Hc H.
  assert (E : exists d, h_publish s sid tr args clock = one_packet s (error_message "NetStream.Publish.Start" d tr) clock sid false false).
  { unfold h_publish. hide_strings. rewrite Hc. destruct args as [|a0 [|a1 rest]]; eexists; reflexivity. }
  destruct E as [d E]. rewrite E in H. eexists. split; [exact H|reflexivity].
Qed.

Lemma h_play_not_connected s sid tr args clock s' r :
  sv_connected s = false -> h_play s sid tr args clock = (s', r) ->
  exists m, one_packet s m clock sid false false = (s', r) /\
            match m with MAmf0Command name _ _ _ => name = str "_error" | _ => False end.
Proof.
  intros Hc H.
  assert (E : exists d, h_play s sid tr args clock = one_packet s (error_message "NetStream.Play.Start" d tr) clock sid false false).
  { unfold h_play. hide_strings. rewrite Hc. destruct args as [|a0 rest]; eexists; reflexivity. }
  destruct E as [d E]. rewrite E in H. eexists. split; [exact H|reflexivity].
Qed.

Lemma accept_unknown_id s id clock : lookup id (sv_reqs s) = None -> server_accept s id clock = (s, RErr SInvalidRequestId).
Proof. intros H. unfold server_accept. rewrite H. reflexivity. Qed.

Lemma reject_unknown_id s id code d clock : lookup id (sv_reqs s) = None -> server_reject s id code d clock = (s, RErr SInvalidRequestId).
Proof. intros H. unfold server_reject. rewrite H. reflexivity. Qed.

Lemma run_reqs plan s acc : sv_reqs (fst (run s plan acc)) = sv_reqs s.
Proof. destruct (run_ser plan s acc) as [ser' ->]. reflexivity. Qed.

Lemma accept_removes s id clock s' r req :
  lookup id (sv_reqs s) = Some req -> server_accept s id clock = (s', r) -> lookup id (sv_reqs s') = None.
Proof.
  intros Hl H. apply (f_equal (fun c => sv_reqs (fst c))) in H. cbn [fst] in H. rewrite <- H.
  unfold server_accept. rewrite Hl. cbv zeta.
  assert (G : forall s1 : server, sv_reqs s1 = remove id (sv_reqs s) -> lookup id (sv_reqs s1) = None).
  { intros s1 ->. apply lookup_remove_same. }
  destruct req as [app tr|key mode sid|key sid]; cbv iota.
  - apply G. exact (run_reqs [ISend _ _ _ _ _] _ []).
  - unfold accept_publish. destruct (lookup sid _); [|apply G; reflexivity].
    apply G. exact (run_reqs [ISend _ _ _ _ _; ISend _ _ _ _ _] _ []).
  - unfold accept_play. destruct (lookup sid _); [|apply G; reflexivity].
    apply G. exact (run_reqs [ISend _ _ _ _ _; ISend _ _ _ _ _; ISend _ _ _ _ _; ISend _ _ _ _ _; ISend _ _ _ _ _] _ []).
Qed.

Lemma reject_removes s id code d clock s' r req :
  lookup id (sv_reqs s) = Some req -> server_reject s id code d clock = (s', r) -> lookup id (sv_reqs s') = None.
Proof.
  intros Hl H. unfold server_reject in H. rewrite Hl in H.
  destruct (match req with RConnection _ tr => (tr, 0) | RPublish _ _ sid => (0, sid) | RPlay _ sid => (0, sid) end) as [tr sid].
  destruct (one_packet_spec _ _ _ _ _ _ _ _ H) as [[_ [Hr _]] _]. rewrite Hr. cbn. apply lookup_remove_same.
Qed.

Lemma create_stream_fresh s tr clock s' r :
  Inv s -> h_create_stream s tr clock = (s', r) ->
  lookup (sv_next_stream s) (sv_streams s) = None /\
  sv_next_stream s' = sv_next_stream s + 1 /\ lookup (sv_next_stream s) (sv_streams s') = Some StCreated /\
  (forall rs, r = ROk rs -> exists b ser',
      send_message (sv_ser s) (MAmf0Command (str "_result") tr VNull [VNumber (u32_to_f64 (sv_next_stream s))]) clock 0 false false = Ok (b, ser') /\
      rs = [SPacket b false]).
Proof.
  intros [_ [I2 _]] H. unfold h_create_stream in H.
  destruct (one_packet_spec _ _ _ _ _ _ _ _ H) as [[_ [_ [_ [_ [Hs [Hn _]]]]]] [_ [_ Hcases]]]. cbn in Hs, Hn.
  split.
  - destruct (lookup (sv_next_stream s) (sv_streams s)) eqn:E; [|reflexivity]. specialize (I2 _ _ E). lia.
  - split; [exact Hn|]. split; [rewrite Hs; apply lookup_insert_same|].
    intros rs Hr. subst r. destruct Hcases as [[b [ser' [Hsend [Hr _]]]]|[[e [Hr _]]|[Hr _]]]; try discriminate.
    inversion Hr; subst. exists b, ser'. split; [exact Hsend|reflexivity].
Qed.

Lemma media_gate audio s data sid ts :
  h_media audio s data sid ts =
  (s, ROk (if sv_connected s
           then match publishing_key s sid with
                | Some (app, key) => [SEvent (if audio then EvAudio app key data ts else EvVideo app key data ts)]
                | None => []
                end
           else [])).
Proof. unfold h_media. destruct (sv_connected s); cbn [negb]; [|reflexivity]. destruct (publishing_key s sid) as [[app key]|]; reflexivity. Qed.

Lemma publishing_key_spec s sid app key :
  publishing_key s sid = Some (app, key) <-> sv_app s = Some app /\ exists mode, lookup sid (sv_streams s) = Some (StPublishing key mode).
Proof.
  unfold publishing_key. destruct (sv_app s) as [a|]; [|split; [discriminate|intros [H _]; discriminate]].
  destruct (lookup sid (sv_streams s)) as [[|k m|k|]|]; split; intros H; try discriminate;
    try (destruct H as [_ [mode H]]; discriminate).
  - inversion H; subst. split; [reflexivity|]. exists m. reflexivity.
  - destruct H as [Ha [mode Hm]]. inversion Ha; inversion Hm; subst. reflexivity.
Qed.

Lemma close_or_delete_spec delete s args :
  sv_connected s = true -> forall app x, sv_app s = Some app -> args = VNumber x :: tl args ->
  let sid := f64_to_u32 x in
  match lookup sid (sv_streams s) with
  | None => h_close_or_delete delete s args = (s, ROk [])
  | Some st =>
    exists s', h_close_or_delete delete s args = (s', ROk (finished_event app st)) /\
      (if delete then lookup sid (sv_streams s') = None else lookup sid (sv_streams s') = Some StCreated) /\
      (forall k, k <> sid -> lookup k (sv_streams s') = lookup k (sv_streams s)) /\ sv_reqs s' = sv_reqs s
  end.
Proof.
  intros Hc app x Ha Hargs sid. unfold h_close_or_delete. rewrite Hc, Ha. cbn [negb]. rewrite Hargs. fold sid.
  destruct (lookup sid (sv_streams s)) as [st|]; [|reflexivity].
  eexists. split; [reflexivity|]. cbn. destruct delete.
  - split; [apply lookup_remove_same|]. split; [intros k Hk; apply lookup_remove_other; exact Hk|reflexivity].
  - split; [apply lookup_insert_same|]. split; [intros k Hk; apply lookup_insert_other; exact Hk|reflexivity].
Qed.

Lemma finished_event_once app st : (length (finished_event app st) <= 1)%nat /\ finished_event app StCreated = [].
Proof. destruct st; cbn; split; try reflexivity; lia. Qed.

Lemma ping_echo s p clock ts :
  of_payload (m_tid p) (m_data p) = Ok (MUserControl PingRequest None None (Some ts)) ->
  h_message s p clock = one_packet s (MUserControl PingResponse None None (Some ts)) clock 0 false false.
Proof. intros H. unfold h_message. rewrite H. reflexivity. Qed.

Definition events_only (rs : list sresult) : bool :=
  forallb (fun r => match r with SPacket _ _ => false | _ => true end) rs.

(* The shape of every message handler and application call, stated of two calls at once: the protocol fields move, in both to
   states M relates; then both fail with the same error, or both run the same plan behind the same results.  Of a handler called
   on two sessions it says that the decisions were taken on what M keeps alike; a single call is handled like itself.  acc holds
   no packet, so every packet of the call is one the plan sends. *)
Inductive handled (M : server -> server -> Prop) (sid clock : N) : call -> call -> Prop :=
| hd_err s1 s2 e : M s1 s2 -> handled M sid clock (s1, RErr e) (s2, RErr e)
| hd_run s1 s2 plan acc : M s1 s2 -> events_only acc = true -> Forall (sends_at clock (fun i => i = 0 \/ i = sid)) plan ->
    handled M sid clock (run s1 plan acc) (run s2 plan acc).

Section Handled.
  Variables (M : server -> server -> Prop) (sid clock : N).

  Lemma handled_ret s1 s2 rs : M s1 s2 -> events_only rs = true -> handled M sid clock (s1, ROk rs) (s2, ROk rs).
  Proof. intros H1 H2. apply (hd_run M sid clock s1 s2 [] rs H1 H2). constructor. Qed.

  Lemma handled_one s1 s2 m i f d : M s1 s2 -> sendable m = true -> i = 0 \/ i = sid ->
    handled M sid clock (one_packet s1 m clock i f d) (one_packet s2 m clock i f d).
  Proof.
    intros H1 H2 H3. apply (hd_run M sid clock s1 s2 [ISend m clock i f d] [] H1 eq_refl).
    constructor; [|constructor]. repeat split; assumption.
  Qed.

  Lemma handled_mono (M' : server -> server -> Prop) c c' :
    (forall s1 s2, M s1 s2 -> M' s1 s2) -> handled M sid clock c c' -> handled M' sid clock c c'.
  Proof. intros HM [s1 s2 e H1|s1 s2 plan acc H1 H2 H3]; [apply hd_err|apply hd_run]; auto. Qed.

  Lemma handled_lift (Q : server -> Prop) c c' :
    (forall s1 x, Q s1 -> Q (upd_ser s1 x)) -> handled M sid clock c c' -> (forall s1 s2, M s1 s2 -> Q s1) -> Q (fst c).
  Proof.
    intros HQ [s1 s2 e H1|s1 s2 plan acc H1 _ _] HM; [exact (HM s1 s2 H1)|].
    destruct (run_ser plan s1 acc) as [ser' ->]. apply HQ, (HM s1 s2 H1).
  Qed.
End Handled.

(* s with another serializer, deserializer and acknowledgement counter; convertible with SessionPartition.with_io *)
Definition put_io (s : server) (ser : sstate) (de : dstate) (a : ack_state) : server := upd_ack (upd_de (upd_ser s ser) de) a.

(* the fields of such a session are those of s; once they are reduced, a handler applied to s and to put_io s .. branches on
   syntactically the same scrutinees, so one case analysis serves both copies *)
Ltac fields :=
  cbn [put_io upd_ser upd_de upd_ack sv_ser sv_de sv_ack sv_app sv_reqs sv_next_req sv_connected sv_fms sv_objenc sv_streams sv_next_stream].

(* the moves P allows, made alike in two sessions that differ in serializer, deserializer and counter *)
Definition placed (P : server -> Prop) ser de a (s1 s2 : server) : Prop := P s1 /\ s2 = put_io s1 ser de a.
(* the moves of a single call *)
Definition alone (P : server -> Prop) (s1 s2 : server) : Prop := P s1.

Definition req_at (sid : N) (r : request) : Prop :=
  match r with RConnection _ _ => True | RPublish _ _ i | RPlay _ i => i = sid end.

(* how a command, data or media message on stream sid moves the protocol fields *)
Inductive cmoves (sid : N) (s : server) : server -> Prop :=
| cm_none : cmoves sid s s
| cm_request oe r : req_at sid r -> cmoves sid s (fst (new_request (upd_objenc s oe) r))
| cm_create : cmoves sid s (upd_streams s (insert (sv_next_stream s) StCreated (sv_streams s)) (sv_next_stream s + 1))
| cm_close (delete : bool) k st : lookup k (sv_streams s) = Some st ->
    cmoves sid s (upd_streams s (if delete then remove k (sv_streams s) else insert k StCreated (sv_streams s)) (sv_next_stream s)).

(* any message: also Set Chunk Size (each deserializer takes the size) and Window Acknowledgement Size (each counter the window) *)
Inductive moves (sid : N) (s : server) ser de a : server -> server -> Prop :=
| mv_core s1 s2 : placed (cmoves sid s) ser de a s1 s2 -> moves sid s ser de a s1 s2
| mv_de n d d2 : de_set_max_chunk_size (sv_de s) n = Ok d -> de_set_max_chunk_size de n = Ok d2 ->
    moves sid s ser de a (upd_de s d) (put_io s ser d2 a)
| mv_ack n : moves sid s ser de a (upd_ack s (ack_learn (sv_ack s) n)) (put_io s ser de (ack_learn a n)).

(* command, data and media handlers decide on the protocol fields alone *)
Section Handlers.
  Variables (s : server) (sid clock : N) (ser : sstate) (de : dstate) (a : ack_state).
  Let s2 := put_io s ser de a.
  Let alike := handled (placed (cmoves sid s) ser de a) sid clock.

  Lemma unmoved : placed (cmoves sid s) ser de a s s2.
  Proof. split; [apply cm_none|reflexivity]. Qed.

  Lemma h_connect_handled tr obj : alike (h_connect s tr obj) (h_connect s2 tr obj).
  Proof.
    unfold alike, s2, h_connect, new_request. fields. walk; try (apply hd_err, unmoved).
    apply handled_ret; [|reflexivity]. split; [apply (cm_request sid s _ (RConnection _ tr) I)|reflexivity].
  Qed.

  Lemma h_close_or_delete_handled delete args : alike (h_close_or_delete delete s args) (h_close_or_delete delete s2 args).
  Proof.
    unfold alike, s2, h_close_or_delete. fields. destruct (negb _); [apply handled_ret; [apply unmoved|reflexivity]|].
    destruct (sv_app s) as [app|]; [|apply handled_ret; [apply unmoved|reflexivity]].
    destruct args as [|[x| | | | | |] rest]; try (apply handled_ret; [apply unmoved|reflexivity]).
    destruct (lookup (f64_to_u32 x) (sv_streams s)) as [st|] eqn:El; [|apply handled_ret; [apply unmoved|reflexivity]].
    apply handled_ret; [split; [exact (cm_close sid s delete _ st El)|reflexivity]|]. destruct st; reflexivity.
  Qed.

  Lemma h_create_stream_handled tr : alike (h_create_stream s tr clock) (h_create_stream s2 tr clock).
  Proof. apply handled_one; [split; [apply cm_create|reflexivity]|reflexivity|left; reflexivity]. Qed.

  Lemma h_publish_handled tr args : alike (h_publish s sid tr args clock) (h_publish s2 sid tr args clock).
  Proof.
    unfold alike, s2, h_publish, new_request. cbv zeta. fields. walk; try (apply handled_one; [apply unmoved|reflexivity|right; reflexivity]).
    apply handled_ret; [|reflexivity]. split; [apply (cm_request sid s _ (RPublish _ _ sid) eq_refl)|reflexivity].
  Qed.

  Lemma h_play_handled tr args : alike (h_play s sid tr args clock) (h_play s2 sid tr args clock).
  Proof.
    unfold alike, s2, h_play, new_request. cbv zeta. fields. walk; try (apply handled_one; [apply unmoved|reflexivity|right; reflexivity]).
    apply handled_ret; [|reflexivity]. split; [apply (cm_request sid s _ (RPlay _ sid) eq_refl)|reflexivity].
  Qed.

  Lemma h_command_handled name tr obj args : alike (h_command s sid name tr obj args clock) (h_command s2 sid name tr obj args clock).
  Proof.
    unfold alike, h_command. walk.
    - apply h_connect_handled.
    - apply h_close_or_delete_handled.
    - apply h_create_stream_handled.
    - apply h_close_or_delete_handled.
    - apply h_play_handled.
    - apply h_publish_handled.
    - apply handled_ret; [apply unmoved|reflexivity].
  Qed.

  Lemma h_data_handled vs : alike (h_data s vs sid) (h_data s2 vs sid).
  Proof. unfold alike, s2, h_data, publishing_key. fields. walk; apply handled_ret; first [apply unmoved|reflexivity]. Qed.

  Lemma h_media_handled au d ts : alike (h_media au s d sid ts) (h_media au s2 d sid ts).
  Proof. unfold alike, s2, h_media, publishing_key. fields. walk; apply handled_ret; first [apply unmoved|destruct au; reflexivity|reflexivity]. Qed.
End Handlers.

Theorem h_message_handled s p clock ser de a :
  handled (moves (m_sid p) s ser de a) (m_sid p) clock (h_message s p clock) (h_message (put_io s ser de a) p clock).
Proof.
  pose proof (mv_core (m_sid p) s ser de a) as Hc. pose proof (Hc _ _ (unmoved s (m_sid p) ser de a)) as H0.
  unfold h_message. pose proof (of_payload_total (m_tid p) (m_data p)) as Ht.
  destruct (of_payload (m_tid p) (m_data p)) as [m|e|x|]; try contradiction; [|apply hd_err, H0].
  destruct m as [t d|n|n|name tr obj args|vs|d|n|n lt|ev sid bl ts|d|n]; try (apply handled_ret; [exact H0|reflexivity]).
  - apply (handled_mono _ _ _ _ _ _ Hc), h_command_handled.
  - apply (handled_mono _ _ _ _ _ _ Hc), h_data_handled.
  - apply (handled_mono _ _ _ _ _ _ Hc), h_media_handled.
  - fields. destruct (de_set_max_alike (sv_de s) de n) as [[e [-> ->]]|[d1 [d2 [E1 E2]]]]; [apply hd_err, H0|].
    rewrite E1, E2. apply handled_ret; [exact (mv_de _ _ _ _ _ n d1 d2 E1 E2)|reflexivity].
  - destruct ev; try (apply handled_ret; [exact H0|reflexivity]).
    apply handled_one; [exact H0|reflexivity|left; reflexivity].
  - apply (handled_mono _ _ _ _ _ _ Hc), h_media_handled.
  - apply handled_ret; [apply mv_ack|reflexivity].
Qed.

(* the normal form of a single call: both copies on s (for handled_lift, which looks at the first only) *)
Definition h_message_handled1 s p clock := h_message_handled s p clock (sv_ser s) (sv_de s) (sv_ack s).

Inductive sop :=
| OpInput (input : bytes) (clock : N)
| OpAccept (id clock : N)
| OpReject (id : N) (code description : bytes) (clock : N)
| OpMetadata (sid : N) (md : metadata) (clock : N)
| OpVideo (sid : N) (data : bytes) (ts : N) (drop : bool)
| OpAudio (sid : N) (data : bytes) (ts : N) (drop : bool)
| OpPing (clock : N)
| OpFinish (sid clock : N).

Definition server_step (s : server) (op : sop) : call :=
  match op with
  | OpInput i c => server_handle_input s i c
  | OpAccept id c => server_accept s id c
  | OpReject id code d c => server_reject s id code d c
  | OpMetadata sid md c => server_send_metadata s sid md c
  | OpVideo sid d ts drop => server_send_video s sid d ts drop
  | OpAudio sid d ts drop => server_send_audio s sid d ts drop
  | OpPing c => server_send_ping s c
  | OpFinish sid c => server_finish_playing s sid c
  end.

Fixpoint server_run (s : server) (ops : list sop) : server :=
  match ops with [] => s | op :: r => server_run (fst (server_step s op)) r end.

(* how an application call moves them *)
Inductive amoves (s : server) : server -> Prop :=
| am_none : amoves s s
| am_take id r : lookup id (sv_reqs s) = Some r -> amoves s (upd_reqs s (remove id (sv_reqs s)) (sv_next_req s))
| am_conn s0 app : amoves s s0 -> amoves s (upd_conn s0 (Some app) true)
| am_stream s0 sid st st' : amoves s s0 -> lookup sid (sv_streams s0) = Some st ->
    amoves s (upd_streams s0 (insert sid st' (sv_streams s0)) (sv_next_stream s0)).

Definition req_sid (r : request) : N := match r with RConnection _ _ => 0 | RPublish _ _ sid | RPlay _ sid => sid end.

(* the stream and the time stamp an application call's packets carry *)
Definition op_at (s : server) (op : sop) : N * N :=
  match op with
  | OpInput _ c | OpPing c => (0, c)
  | OpAccept id c | OpReject id _ _ c => (match lookup id (sv_reqs s) with Some r => req_sid r | None => 0 end, c)
  | OpMetadata sid _ c | OpFinish sid c => (sid, c)
  | OpVideo sid _ ts _ | OpAudio sid _ ts _ => (sid, ts)
  end.

Definition is_input (op : sop) : bool := match op with OpInput _ _ => true | _ => false end.

Theorem server_call_handled s op : is_input op = false ->
  handled (alone (amoves s)) (fst (op_at s op)) (snd (op_at s op)) (server_step s op) (server_step s op).
Proof.
  intros Hop. destruct op as [i c|id c|id code d c|sid md c|sid d ts drop|sid d ts drop|c|sid c]; [discriminate Hop|..];
    cbn [server_step op_at fst snd]; try (apply handled_one; [apply am_none|reflexivity|auto]).
  - unfold server_accept, accept_connection, accept_publish, accept_play, onstatus. hide_strings.
    destruct (lookup id (sv_reqs s)) as [r|] eqn:El; [|apply hd_err, am_none].
    pose proof (am_take s id r El) as Ht. cbv zeta. destruct r as [app tr|key mode sid|key sid]; cbn [req_sid].
    + apply handled_one; [apply am_conn, Ht|reflexivity|auto].
    + cbn [sv_streams upd_reqs sv_next_stream].
      destruct (lookup sid (sv_streams s)) as [st|] eqn:Es; [|apply hd_err, Ht].
      refine (hd_run _ _ _ _ _ (map (fun m => ISend m c sid false false) [_; _]) [] (am_stream s _ sid st _ Ht Es) eq_refl _).
      repeat constructor; reflexivity.
    + cbn [sv_streams upd_reqs sv_next_stream].
      destruct (lookup sid (sv_streams s)) as [st|] eqn:Es; [|apply hd_err, Ht].
      refine (hd_run _ _ _ _ _ (map (fun m => ISend m c sid false false) [_; _; _; _; _]) [] (am_stream s _ sid st _ Ht Es) eq_refl _).
      repeat constructor; reflexivity.
  - unfold server_reject. destruct (lookup id (sv_reqs s)) as [r|] eqn:El; [|apply hd_err, am_none].
    pose proof (am_take s id r El) as Ht. destruct r as [app tr|key mode sid|key sid]; (apply handled_one; [exact Ht|reflexivity|auto]).
  - unfold server_finish_playing. destruct (lookup sid (sv_streams s)) as [[|k m|k|]|] eqn:Es; try (apply hd_err, am_none).
    apply handled_one; [apply (am_stream s s sid _ _ (am_none s) Es)|reflexivity|auto].
Qed.

Lemma Inv_upd_ack s a : Inv s -> Inv (upd_ack s a).
Proof. intros H. exact H. Qed.
Lemma Inv_upd_ser s x : Inv s -> Inv (upd_ser s x).
Proof. intros H. exact H. Qed.

Lemma Inv_cmoves sid s s1 : cmoves sid s s1 -> Inv s -> Inv s1.
Proof.
  intros [|oe r _| |delete k st El] HI; [exact HI|apply (new_request_fresh (upd_objenc s oe) r _ _ HI (surjective_pairing _))| |];
    destruct HI as [I1 [I2 I3]]; (split; [exact I1|split; [cbn|exact I3]]).
  - apply keys_below_insert; [exact I2|lia].
  - destruct delete; [apply keys_below_remove; exact I2|apply keys_below_insert_same; [exact I2|exact (I2 _ _ El)]].
Qed.

Lemma Inv_h_message s p clock : Inv s -> Inv (fst (h_message s p clock)).
Proof.
  intros HI. apply (handled_lift _ _ _ Inv _ _ Inv_upd_ser (h_message_handled1 s p clock)).
  intros s1 s2 [? ? [Hc _]|n d d2 _ _|n]; [exact (Inv_cmoves _ _ _ Hc HI)|exact HI|exact HI].
Qed.

Lemma Inv_h_loop fuel : forall s input clock acc, Inv s -> Inv (fst (h_loop fuel s input clock acc)).
Proof.
  induction fuel as [|f IH]; intros s input clock acc HI; cbn [h_loop]; [exact HI|].
  destruct (get_next_message (sv_de s) input) as [d res]. destruct res as [p| |e|]; try exact HI.
  pose proof (Inv_h_message (upd_de s d) p clock HI) as H1.
  destruct (h_message (upd_de s d) p clock) as [s1 r1]. destruct r1; try exact H1. apply (IH _ _ _ _ H1).
Qed.

Lemma Inv_amoves s s1 : amoves s s1 -> Inv s -> Inv s1.
Proof.
  intros Ha HI. induction Ha as [|id r El|s0 app _ [I1 [I2 I3]]|s0 sid st st' _ [I1 [I2 I3]] Es]; [exact HI| | |].
  - destruct HI as [I1 [I2 I3]]. split; [cbn; apply keys_below_remove; exact I1|split; assumption].
  - split; [exact I1|split; [exact I2|]]. intros _. exists app. reflexivity.
  - split; [exact I1|split; [cbn|exact I3]]. apply keys_below_insert_same; [exact I2|exact (I2 _ _ Es)].
Qed.

Lemma Inv_step s op : Inv s -> Inv (fst (server_step s op)).
Proof.
  intros HI. destruct (is_input op) eqn:Eo.
  - destruct op; try discriminate Eo. cbn [server_step]. unfold server_handle_input.
    destruct (ack_step (sv_ack s) (lenN input)) as [a [n|]]; [|apply Inv_h_loop; exact HI].
    destruct (send_message (sv_ser s) (MAcknowledgement n) clock 0 false false) as [[b ser']|e|x|]; try exact HI.
    apply Inv_h_loop. exact HI.
  - apply (handled_lift _ _ _ Inv _ _ Inv_upd_ser (server_call_handled s op Eo)). intros s1 s2 Ha. exact (Inv_amoves s s1 Ha HI).
Qed.

Theorem Inv_reachable s ops : Inv s -> Inv (server_run s ops).
Proof. revert s. induction ops as [|op r IH]; intros s H; [exact H|]. cbn [server_run]. apply IH. apply Inv_step. exact H. Qed.

(* ServerSession::new is the run of a plan from the empty session *)
Definition server0 (c : config) : server :=
  {| sv_ser := ser_init; sv_de := de_init; sv_app := None; sv_reqs := []; sv_next_req := 0; sv_connected := false;
     sv_fms := cfg_fms c; sv_objenc := 0; sv_streams := []; sv_next_stream := 1; sv_ack := {| ack_window := None; ack_since := 0 |} |}.

Theorem server_new_handled c clock : handled (alone (eq (server0 c))) 0 clock (server_new c clock) (server_new c clock).
Proof.
  unfold server_new. destruct (cfg_bwdone c).
  - refine (hd_run _ _ _ _ _ (ISize _ 0 :: map (fun m => ISend m clock 0 true false) [_; _; _; _]) [] eq_refl eq_refl _).
    repeat constructor; reflexivity.
  - refine (hd_run _ _ _ _ _ (ISize _ 0 :: map (fun m => ISend m clock 0 true false) [_; _; _]) [] eq_refl eq_refl _).
    repeat constructor; reflexivity.
Qed.

Lemma Inv_new c clock s r : server_new c clock = (s, r) -> Inv s.
Proof.
  intros H. change s with (fst (s, r)). rewrite <- H. apply (handled_lift _ _ _ Inv _ _ Inv_upd_ser (server_new_handled c clock)).
  intros s1 s2 <-. split; [intros k v Hl; discriminate|]. split; [intros k v Hl; discriminate|intros Hc; discriminate].
Qed.

Theorem Inv_from_new c clock s r ops : server_new c clock = (s, r) -> Inv (server_run s ops).
Proof. intros H. apply Inv_reachable. exact (Inv_new c clock s r H). Qed.
