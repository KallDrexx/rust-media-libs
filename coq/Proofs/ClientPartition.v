(* C15 for the client session, as SessionPartition.v does it for the server (ch_message_cext, ch_message_similar); the loop
   itself is that of MessageLoop. *)
From RML Require Import Model.Base Model.Time Model.Chunk Model.ChunkSer Model.ChunkDe Model.Amf0 Model.Messages Model.SessionCommon
  Model.Server Model.Client Gen.Consts Proofs.BaseProofs Proofs.ChunkDeProofs Proofs.ChunkDeFuel Proofs.MessageLoop Proofs.TotalProofs Proofs.ConfigProofs
  Proofs.InteropProofs Proofs.SessionSend Proofs.ClientProofs Proofs.SessionFrame Proofs.SessionPartition.
Local Open Scope N_scope.

Definition cext (c : client) (x : bytes) : client := cupd_de c (ext (cl_de c) x).

Definition ccommutes (x : bytes) (c1 c2 : ccall) : Prop := c1 = (cext (fst c2) x, snd c2).

Lemma chandled_commutes M P clock x c c' : chandled M P clock c c' -> (forall c1 c2, M c1 c2 -> c2 = cext c1 x) -> ccommutes x c' c.
Proof.
  intros [c1 c2 e Hm|c1 c2 plan acc Hm _ _] HM; rewrite (HM _ _ Hm); unfold ccommutes; [reflexivity|].
  rewrite (crun_frame plan c1 (cext c1 x) acc eq_refl). destruct (crun_ser plan c1 acc) as [ser' ->]. reflexivity.
Qed.

Lemma cl_moved_put c ser de a c1 c2 : cl_moved c (cput_io c ser de a) c1 c2 -> c2 = cput_io c1 ser de a.
Proof. induction 1; subst; reflexivity. Qed.

Theorem ch_message_cext x c p clock : ccommutes x (ch_message (cext c x) p clock) (ch_message c p clock).
Proof.
  apply (chandled_commutes _ _ _ _ _ _ (ch_message_handled c p clock (cl_ser c) (ext (cl_de c) x) (cl_ack c))).
  intros c1 c2 [? ? Hc|n d d2 E1 E2|n].
  - rewrite (cl_moved_put _ _ _ _ _ _ Hc). destruct (cl_moved_io _ _ _ _ Hc) as [<- [<- <-]]. destruct c0; reflexivity.
  - rewrite de_set_max_ext, E1 in E2. injection E2 as <-. reflexivity.
  - reflexivity.
Qed.

Inductive cverdict := CVOk | CVErr (e : cerr) | CVPanic.

Definition cverdict_of (r : creply) : cverdict := match r with COk _ => CVOk | CErr e => CVErr e | CPanic => CVPanic end.
Definition creply_of (seen : list cresult) (v : cverdict) : creply :=
  match v with CVOk => COk seen | CVErr e => CErr e | CVPanic => CPanic end.

(* the loop of MessageLoop with ch_message as the handler *)
Definition clh (clock : N) (c : client) (p : msg) : client * (list cresult + cverdict) :=
  let (c1, r) := ch_message c p clock in (c1, match r with COk rs => inl rs | _ => inr (cverdict_of r) end).
Definition cwire (e : de_err) : cverdict := CVErr (CWire (WChunkDe e)).
Definition cstep (clock : N) : client -> client * advance cresult cverdict := mstep cl_de cupd_de cwire CVPanic (clh clock).
Definition cloop (clock : N) := loop CVOk (cstep clock).

Lemma cupd_de_de c : cupd_de c (cl_de c) = c.
Proof. destruct c; reflexivity. Qed.

Lemma clh_cext clock c x p : clh clock (cext c x) p = (cext (fst (clh clock c p)) x, snd (clh clock c p)).
Proof.
  unfold clh. pose proof (ch_message_cext x c p clock) as H. unfold ccommutes in H. rewrite H.
  destruct (ch_message c p clock) as [c1 [rs|e|]]; reflexivity.
Qed.

Lemma clh_bad clock c p : snd (clh clock c p) <> inr CVOk.
Proof. unfold clh. destruct (ch_message c p clock) as [c1 [rs|e|]]; discriminate. Qed.

Lemma clh_fst clock s p : fst (clh clock s p) = fst (ch_message s p clock).
Proof. unfold clh. destruct (ch_message s p clock); reflexivity. Qed.

Lemma ch_loop_S clock f s input acc : ch_loop (S f) s input clock acc =
  match mstep_on cupd_de cwire CVPanic (clh clock) s (get_next_message (cl_de s) input) with
  | (s1, More rs) => ch_loop f s1 [] clock (acc ++ rs)
  | (s1, Done) => (s1, creply_of acc CVOk)
  | (s1, Stop v) => (s1, creply_of acc v)
  end.
Proof.
  cbn [ch_loop]. destruct (get_next_message (cl_de s) input) as [d [p| |e|]]; try reflexivity.
  cbn [mstep_on]. unfold clh. destruct (ch_message (cupd_de s d) p clock) as [s1 [rs|e|]]; reflexivity.
Qed.

Lemma ch_loop_sound clock fuel s input acc : (nu (ext (cl_de s) input) < fuel)%nat ->
  exists s' seen v, ch_loop fuel s input clock acc = (s', creply_of seen v) /\ cloop clock (cext s input) acc s' seen v.
Proof.
  apply (run_sound _ _ _ CVOk cl_de cupd_de (fun _ _ => eq_refl) cupd_de_de (fun _ _ _ => eq_refl) cwire CVPanic (clh clock) _ creply_of
           (fun f s i a => ch_loop f s i clock a) (ch_loop_S clock)).
  intros s0 p. rewrite clh_fst. apply ch_message_nu.
Qed.

Definition csame_core (c c' : client) : Prop :=
  cl_cfg c' = cl_cfg c /\ cl_next_tr c' = cl_next_tr c /\ cl_trs c' = cl_trs c /\ cl_state c' = cl_state c /\
  cl_app c' = cl_app c /\ cl_stream c' = cl_stream c.
Lemma csame_core_refl c : csame_core c c.
Proof. repeat split. Qed.

Lemma csame_core_with_io c c' : csame_core c c' -> c' = cput_io c (cl_ser c') (cl_de c') (cl_ack c').
Proof. intros [H1 [H2 [H3 [H4 [H5 H6]]]]]. destruct c, c'. cbn in *. subst. reflexivity. Qed.

Definition cresults_of (r : creply) : list cresult := match r with COk rs => rs | _ => [] end.

Definition csimilar (c1 c2 : ccall) : Prop :=
  csame_core (fst c1) (fst c2) /\ cverdict_of (snd c1) = cverdict_of (snd c2) /\ cevents (cresults_of (snd c1)) = cevents (cresults_of (snd c2)) /\
  (ser_ok (cl_ser (fst c1)) /\ ser_ok (cl_ser (fst c2))).

Lemma cevents_app a b : cevents (a ++ b) = cevents a ++ cevents b.
Proof. unfold cevents. apply flat_map_app. Qed.

Lemma crun_csimilar plan : forall c1 c2 acc1 acc2, csame_core c1 c2 -> ser_ok (cl_ser c1) -> ser_ok (cl_ser c2) ->
  cevents acc1 = cevents acc2 -> csimilar (crun c1 plan acc1) (crun c2 plan acc2).
Proof.
  induction plan as [|[m ts sid f d|n ts|e] r IH]; intros c1 c2 acc1 acc2 Hc H1 H2 He; cbn [crun].
  - exact (conj Hc (conj eq_refl (conj He (conj H1 H2)))).
  - unfold csending. pose proof (send_message_similar (cl_ser c1) (cl_ser c2) m ts sid f d H1 H2) as H.
    destruct (send_message (cl_ser c1) m ts sid f d) as [[b1 x1]|e1|y|], (send_message (cl_ser c2) m ts sid f d) as [[b2 x2]|e2|y2|];
      try contradiction.
    + apply IH; [exact Hc|apply H..|rewrite !cevents_app, He; reflexivity].
    + subst. exact (conj Hc (conj eq_refl (conj eq_refl (conj H1 H2)))).
  - pattern (ChunkSer.set_max_chunk_size (cl_ser c1) n ts), (ChunkSer.set_max_chunk_size (cl_ser c2) n ts).
    apply set_max_similar; [exact H1|exact H2| |intros e; exact (conj Hc (conj eq_refl (conj eq_refl (conj H1 H2))))].
    intros b1 x1 b2 x2 K1 K2. apply IH; [exact Hc|exact K1|exact K2|rewrite !cevents_app, He; reflexivity].
  - apply IH; [exact Hc|exact H1|exact H2|rewrite !cevents_app, He; reflexivity].
Qed.

Lemma chandled_csimilar M P clock c c' : chandled M P clock c c' ->
  (forall c1 c2, M c1 c2 -> csame_core c1 c2 /\ ser_ok (cl_ser c1) /\ ser_ok (cl_ser c2)) -> csimilar c c'.
Proof.
  intros [c1 c2 e Hm|c1 c2 plan acc Hm _ _] HM; destruct (HM _ _ Hm) as [Hc [H1 H2]]; [exact (conj Hc (conj eq_refl (conj eq_refl (conj H1 H2))))|].
  apply crun_csimilar; [exact Hc|exact H1|exact H2|reflexivity].
Qed.

Lemma ch_message_de_after c p clock : cl_de (fst (ch_message c p clock)) = de_after p (cl_de c).
Proof.
  unfold ch_message, de_after. destruct (of_payload (m_tid p) (m_data p)) as [m|e|x|]; try reflexivity.
  destruct m as [t d|n|n|name tr obj args|vs|d|n|n lt|ev sid bl ts|d|n]; try reflexivity.
  - apply ch_command_de.
  - apply ch_data_de.
  - apply ch_media_de.
  - destruct (de_set_max_chunk_size (cl_de c) n); reflexivity.
  - destruct ev; try reflexivity. apply cone_packet_de.
  - apply ch_media_de.
Qed.

Theorem ch_message_similar c ser2 de2 a2 p clock : ser_ok (cl_ser c) -> ser_ok ser2 ->
  csimilar (ch_message c p clock) (ch_message (cput_io c ser2 de2 a2) p clock).
Proof.
  intros H1 H2. apply (chandled_csimilar _ _ _ _ _ (ch_message_handled c p clock ser2 de2 a2)).
  intros c1 c2 Hm. rewrite (cl_moves_ser _ _ _ _ _ _ Hm).
  destruct Hm as [? ? Hc|n d d2 _ _|n]; try rewrite (cl_moved_put _ _ _ _ _ _ Hc); (split; [repeat split|split; assumption]).
Qed.

Definition crel (a b : client) : Prop := csame_core a b /\ cl_de b = cl_de a /\ ser_ok (cl_ser a) /\ ser_ok (cl_ser b).

Lemma cstep_similar clock : like_steps (cstep clock) cevents crel.
Proof.
  intros a b [Hc [Hd [Ha Hb]]]. unfold cstep, mstep. rewrite Hd. destruct (G (cl_de a)) as [d res].
  assert (Hu : crel (cupd_de a d) (cupd_de b d)) by (split; [exact Hc|split; [reflexivity|split; assumption]]).
  destruct res as [p| |e|]; cbn [mstep_on]; try exact Hu; try (split; [exact Hu|reflexivity]).
  assert (Eb : cupd_de b d = cput_io (cupd_de a d) (cl_ser b) d (cl_ack b)) by (rewrite (csame_core_with_io _ _ Hc); reflexivity).
  pose proof (ch_message_similar (cupd_de a d) (cl_ser b) d (cl_ack b) p clock Ha Hb) as Hs. rewrite <- Eb in Hs.
  pose proof (ch_message_de_after (cupd_de a d) p clock) as D1. pose proof (ch_message_de_after (cupd_de b d) p clock) as D2.
  unfold clh. destruct (ch_message (cupd_de a d) p clock) as [a1 r1], (ch_message (cupd_de b d) p clock) as [b1 r2].
  destruct Hs as [Hc1 [Hv [Hev [Hs1 Hs2]]]]. cbn [fst snd cl_de cupd_de] in *.
  assert (H1 : crel a1 b1) by (split; [exact Hc1|split; [congruence|split; assumption]]).
  destruct r1 as [rs1|e1|], r2 as [rs2|e2|]; try discriminate Hv; split; try exact H1; assumption.
Qed.

Fixpoint feed_client (s : client) (pieces : list bytes) (clock : N) (evs : list cevent) : client * list cevent * cverdict :=
  match pieces with
  | [] => (s, evs, CVOk)
  | p :: r =>
    match client_handle_input s p clock with
    | (s', COk rs) => feed_client s' r clock (evs ++ cevents rs)
    | (s', CErr e) => (s', evs, CVErr e)
    | (s', CPanic) => (s', evs, CVPanic)
    end
  end.

Lemma chandle_input_vs_loop clock s p t acc : crel s t ->
  exists s' seen v t' seen2,
    client_handle_input s p clock = (s', creply_of seen v) /\
    cloop clock (cext t p) acc t' seen2 v /\ crel s' t' /\ cevents seen2 = cevents acc ++ cevents seen.
Proof.
  intros [Hc [Hd [Hs Ht]]]. destruct (client_handle_input_loop s p clock Hs) as [ser0 [acc0 [-> [Hs0 Hacc]]]].
  assert (He0 : cevents acc0 = []).
  { destruct (snd (ack_step (cl_ack s) (lenN p))); [destruct Hacc as [b [_ ->]]|destruct Hacc as [_ ->]]; reflexivity. }
  set (sm := cupd_ack (cupd_ser s ser0) _).
  destruct (ch_loop_sound clock _ sm p acc0 (nu_ext_fuel _ _)) as [s' [seen [v [E1 D1]]]].
  destruct (loop_similar _ _ _ CVOk _ _ cevents crel cevents_app (cstep_similar clock) _ _ _ _ _ D1 (cext t p) acc)
    as [t' [seen2 [delta [D2 [R2 [Ev1 Ev2]]]]]].
  { split; [exact Hc|]. split; [cbn [cext cl_de cupd_de cupd_ack cupd_ser]; rewrite Hd; reflexivity|]. split; assumption. }
  exists s', seen, v, t', seen2. rewrite He0 in Ev1. cbn [app] in Ev1. rewrite Ev1.
  exact (conj E1 (conj D2 (conj R2 Ev2))).
Qed.

Definition cpfeeds (clock : N) := calls CVOk cext (cstep clock).

Lemma feed_client_vs_cpfeeds clock pieces : forall s t evs acc,
  crel s t -> evs = cevents acc ->
  exists t' seen, cpfeeds clock t pieces acc t' seen (snd (feed_client s pieces clock evs)) /\
    exists dropped, cevents seen = snd (fst (feed_client s pieces clock evs)) ++ dropped /\
                    (snd (feed_client s pieces clock evs) = CVOk -> dropped = [] /\ csame_core (fst (fst (feed_client s pieces clock evs))) t').
Proof.
  induction pieces as [|p r IH]; intros s t evs acc HR He.
  - exists t, acc. cbn [feed_client fst snd]. split; [apply c_nil|]. exists []. rewrite app_nil_r. split; [symmetry; exact He|]. intros _. split; [reflexivity|apply HR].
  - cbn [feed_client].
    destruct (chandle_input_vs_loop clock s p t acc HR) as [s' [seen [v [t' [seen2 [E [D [R2 Ev]]]]]]]].
    rewrite E. destruct v as [|e|]; cbn [creply_of].
    { destruct (IH s' t' (evs ++ cevents seen) seen2 R2 ltac:(rewrite Ev, He; reflexivity)) as [t'' [seenF [F R]]].
      exists t'', seenF. split; [eapply c_ok; [exact D|exact F]|exact R]. }
    all: exists t', seen2; cbn [fst snd]. all: split; [apply c_bad; [exact D|discriminate]|].
    all: exists (cevents seen). all: split; [rewrite Ev, He; reflexivity|discriminate].
Qed.

Lemma csame_core_join a b t : csame_core a t -> csame_core b t -> csame_core a b.
Proof.
  intros [A1 [A2 [A3 [A4 [A5 A6]]]]] [B1 [B2 [B3 [B4 [B5 B6]]]]]. unfold csame_core. repeat split; congruence.
Qed.

(* C15 for the client session, as SessionPartition.server_partition_independent has it for the server *)
Theorem client_partition_independent s p1 p2 clock :
  ser_ok (cl_ser s) -> G (cl_de s) = (cl_de s, DNone) -> concat p1 = concat p2 ->
  let r1 := feed_client s p1 clock [] in
  let r2 := feed_client s p2 clock [] in
  snd r1 = snd r2 /\
  (exists common d1 d2, common = snd (fst r1) ++ d1 /\ common = snd (fst r2) ++ d2 /\
     (snd r1 = CVOk -> d1 = [] /\ d2 = [] /\ csame_core (fst (fst r1)) (fst (fst r2)))).
Proof.
  intros Hs Hq Hc r1 r2.
  assert (HR : crel s s) by (split; [apply csame_core_refl|split; [reflexivity|split; exact Hs]]).
  destruct (feed_client_vs_cpfeeds clock p1 s s [] [] HR eq_refl) as [t1 [seen1 [F1 [dr1 [E1 K1]]]]].
  destruct (feed_client_vs_cpfeeds clock p2 s s [] [] HR eq_refl) as [t2 [seen2 [F2 [dr2 [E2 K2]]]]].
  fold r1 in F1, E1, K1. fold r2 in F2, E2, K2.
  destruct (session_partition_independent _ _ _ CVOk cl_de cupd_de (fun _ _ => eq_refl) cupd_de_de (fun _ _ _ => eq_refl) cwire CVPanic (clh clock)
              ltac:(discriminate) (clh_bad clock) (clh_cext clock) s p1 p2 [] t1 seen1 (snd r1) t2 seen2 (snd r2) Hq Hc F1 F2) as [Hseen [Hv Hst]].
  split; [exact Hv|]. exists (cevents seen1), dr1, dr2. split; [exact E1|]. split; [rewrite Hseen; exact E2|].
  intros Hok. destruct (K1 Hok) as [Z1 C1]. specialize (Hst Hok). rewrite Hv in Hok. destruct (K2 Hok) as [Z2 C2].
  split; [exact Z1|]. split; [exact Z2|]. subst t2. exact (csame_core_join _ _ _ C1 C2).
Qed.

Corollary client_pieces c packets pieces clock c1 evs :
  ser_ok (cl_ser c) -> G (cl_de c) = (cl_de c, DNone) -> concat pieces = concat packets ->
  feed_client c packets clock [] = (c1, evs, CVOk) ->
  exists c2, feed_client c pieces clock [] = (c2, evs, CVOk) /\ csame_core c1 c2.
Proof.
  intros Hs Hq Hc E. pose proof (client_partition_independent c packets pieces clock Hs Hq (eq_sym Hc)) as H.
  cbv zeta in H. rewrite E in H. destruct (feed_client c pieces clock []) as [[c2 e2] v2]. cbn [fst snd] in H.
  destruct H as [<- [common [d1 [d2 [C1 [C2 K]]]]]]. destruct (K eq_refl) as [-> [-> Hcore]]. rewrite !app_nil_r in *. subst common.
  exists c2. rewrite <- C2. split; [reflexivity|exact Hcore].
Qed.
