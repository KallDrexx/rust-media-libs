(* C02 - client and server sessions interoperate: media arrives byte-exact and tagged.
   Proved on the models of ClientSession, ServerSession and the chunk layer (all chunk-size configurations; they enter only
   through the Link invariant, which the in-band Set Chunk Size preserves):
   - C02_link_preserved: whatever one session's serializer writes (a message or a chunk-size change), the peer's
     deserializer - fed that packet - returns exactly that message and the two chunk layers remain linked (T1 + T2);
   - C02_publish_sequence: for EVERY sequence of audio/video items (any payload 0..16777215 bytes, any u32 timestamps,
     any droppable flags) sent by a publishing client, the server raises exactly one event per item, in order, with
     identical payload bytes and timestamp, under the connected application name and the stream key, whatever the
     acknowledgement windows; C02_play_sequence: the same from the server to a playing client.
   - C02_publish_any_partition / C02_play_any_partition: the same when the sender's packets are cut into input calls in ANY
     way (composition with C15 for sessions): exactly one event per item, in order, byte-exact, no error.  The two directions
     are independent streams, so every interleaving of deliveries is covered.
   - C02_transport / C02_client_call_transport / C02_server_call_transport: the transport layer in full generality - the packets
     returned by ANY successful call of either session (commands, replies, control messages, chunk-size changes, media), delivered
     in ANY fragmentation to a deserializer linked with that session's serializer, are decoded as exactly one message per packet,
     in order, without error, and the link holds again: the two chunk layers never desynchronize in any schedule.
   - C02_connect_completes (ProtocolProofs.v): the message-level connect exchange, proved for EVERY application name, client
     configuration and clock readings: request_connection's packet, handed to a server linked with the client, raises exactly
     ConnectionRequested with the application name (trailing slash stripped) under a fresh request id and nothing else; the
     server's accept of that id produces one packet which, handed to the client, completes its connect transaction - the client
     raises ConnectionAccepted, is Connected to the application it asked for, announces its window and chunk size, and the two
     chunk layers are linked again.  The only other outcomes are the declared body-too-large errors (an application name of
     megabytes).  C02_connect_request_delivered / C02_connect_accept_delivered are the two halves with any acknowledgement state.
   - C02_publish_completes / C02_play_completes (stage theorems in ProtocolFlow.v, composed in AckHeadroom.v): the publish and the play workflow at message level, for every
     stream key of at most 65000 bytes, every configuration and clock reading, from any connected pair with linked chunk layers:
     request_publishing / request_playback emits createStream, the server creates a fresh stream and answers under the client's
     transaction id, the client sends publish (or the buffer length and play) on that stream, the server raises exactly
     PublishRequested / PlayRequested with the application, the key and the stream, the application's accept produces the status
     packets, and the client raises PublishAccepted / PlaybackAccepted and ends Publishing / Playing on that stream while the
     server has it registered under the application and the key - the states C02_publish_sequence / C02_play_sequence start from.
     Every call of the exchange SUCCEEDS (no hypothesis on outcomes) and raises exactly the events listed; the exact result lists
     are stated for receiving calls in which no acknowledgement falls due (`quiet`; C17 decides when one does - then one
     Acknowledgement packet precedes the results, events and states being the same).  Packets are delivered one per input call;
     C15 for sessions carries events, verdict and state to any other fragmentation.
   - C02_publish_session / C02_play_session (SessionScenario.v): the property's sentence as ONE theorem per direction, from any
     connected pair with linked chunk layers and window headroom for the command exchange: publish (play) completes on both sides
     with exactly the listed packets and events; then EVERY sequence of audio/video items (any payload 0..16777215 bytes, any u32
     timestamps, any droppable flags) is raised on the receiving side exactly once, in order, byte-exact, under the application
     name and stream key - whatever the acknowledgement windows do during the media phase; then stopping raises exactly the
     matching finished event at the server.  On the play side the Acknowledgements the client owes after the media phase are
     read by the server first (C02_server_absorbs_control_packets), as they are on a real connection.
     C02_publish_media_phase / C02_play_media_phase: the media phase keeps everything the stop needs.
     C02_publish_session_all_items / C02_play_session_all_items: the same with METADATA items anywhere in the sequence (every
     StreamMetadata whose frame rate survives f32 -> f64 -> f32 and whose encoder string is valid UTF-8 of at most 65535 bytes):
     a metadata message always fits (its encoded size is a few hundred bytes plus the encoder string, Amf0Size.v / MetadataFits.v),
     so C02_publish_metadata_always_delivered / C02_play_metadata_always_delivered have no error alternative.
   - C02_publish_completes_windows / C02_play_completes_windows (AckHeadroom.v): the same two workflows with NO per-call premise: if
     each side's announced acknowledgement window exceeds its outstanding count by a few packets' worth (a packet of these
     exchanges is at most 17 * (|key| + 200) + 16 bytes, SerSizeProofs.v), every call returns exactly the listed packets and
     events and the final states are reached; sessions that were never told a window satisfy the premise trivially.
     C02_quiet_of_headroom / C02_quiet_when_headroom: the arithmetic criterion behind it.
   - C02_play_metadata: a metadata item the server sends is raised by the playing client as exactly that metadata
     (C02_metadata_mapping_identity_server: the server's property mapping read by the client is the identity).
   - C02_server_packet_any_fragmentation / C02_client_packet_any_fragmentation: a packet that a one-call delivery accepts gives the
     same events, verdict and protocol state when it arrives cut into pieces in any way (C15 for sessions + the link's quiescence).
   - C02_server_notes_acknowledgement / C02_client_notes: the Acknowledgement a peer emits when its counter reaches the window, and
     the other control messages of the opening, are reported and change nothing of the workflow state.
   - C02_stop_publishing_raises_finished / C02_stop_playback_raises_finished: stop emits deleteStream for the active stream, the
     client returns to Connected, and the server raises exactly the matching finished event and forgets the stream.
   - C02_sessions_start, C02_connect_completes_decided, C02_connect_ready (ProtocolStart.v): the chain from two FRESHLY CREATED
     sessions to the workflow theorems: server_new's control packets, read by a new client one per call, all succeed and leave it
     Disconnected with linked chunk layers (the premises of the connect theorem); the connect exchange with every outcome decided
     (names and version strings within AMF0's 16-bit length: no error alternative is left); after the accept, the client's window
     and chunk-size announcements read by the server leave the pair Connected / connected with both directions linked - the
     premises of C02_publish_completes / C02_play_completes.  C02_server_receives_chunk_size / C02_client_receives_chunk_size: a
     Set Chunk Size announcement is applied by the peer's handle_input and the chunk layers are linked again.
   - C02_server_receives_message / C02_client_receives_message: the general step - any message one session sends (Set Chunk Size
     apart, which C02_link_preserved covers) is handled by the peer's handle_input as exactly that decoded message, after the
     acknowledgement prelude, with the chunk layers linked again.
   What remains outside these theorems and is decided by the correspondence check only: whole scenarios in which acknowledgements
   fall due DURING the command exchange (the session theorems ask for window headroom there; the media phase and the stop are
   proved for every window behaviour), application rejects and the play-side finish call at the composed level (their per-session
   behaviour is C09/C10/C18), and arbitrary interleavings of the two directions' deliveries within the command exchange.  For
   these the composed model Model/Interop.v (extracted, compared with the two REAL sessions wired back to back on every case) runs
   canonical and free scenarios under byte-wise / fixed / mixed fragmentation with the oracles C02.* on the real events;
   C02_scenario_publish / C02_scenario_play are computed instances of whole scenarios on that model.
*)
From RML Require Import Model.Base Model.Utf8 Model.Float Model.Amf0 Model.Chunk Model.ChunkSer Model.ChunkDe Model.Messages Model.SessionCommon Model.Server Model.Client
  Model.Interop Proofs.ChunkSerProofs Proofs.InteropProofs Proofs.SessionPartition Proofs.ClientPartition Proofs.InteropPartition Proofs.MetadataProofs Proofs.InteropMetadata Proofs.Transport Proofs.ServerProofs Proofs.SessionFrame Proofs.SessionTrace Proofs.ClientTrace Proofs.SessionTransport Proofs.ProtocolProofs Proofs.ProtocolFlow Proofs.ProtocolStart Proofs.PlayMetadata Proofs.ProtocolFragments Proofs.AckHeadroom Proofs.SessionScenario Proofs.MetadataFits Proofs.Amf0Size Proofs.ConfigProofs Proofs.FloatProofs Proofs.MessageProofs Proofs.ServerProofs.
From Coq Require Import String.
Local Open Scope N_scope.

Theorem C02_link_preserved : forall ser de op b ser',
  Link ser de -> op_wf op -> ser_step ser op = Ok (b, ser') ->
  exists de1 de2 de3, get_next_message de b = (de1, DMsg (op_msg op)) /\ driver_apply de1 (op_msg op) = Ok de2 /\
                      get_next_message de2 [] = (de3, DNone) /\ Link ser' de3.
Proof. exact link_op. Qed.

Theorem C02_link_initially : Link ser_init de_init.
Proof. exact Link_init. Qed.

Theorem C02_publish_sequence : forall items c s clock sid app key,
  Link (cl_ser c) (sv_de s) -> ser_ok (sv_ser s) -> publishing_stream c = Ok sid -> sid < 4294967296 ->
  sv_connected s = true -> publishing_key s sid = Some (app, key) -> Forall item_wf items ->
  exists c' s', publish_run c s items clock =
    Some (c', s', map (fun i => match i with Item video data ts _ => media_event video app key data ts end) items).
Proof. exact publish_sequence_delivered. Qed.

Theorem C02_play_sequence : forall items s c clock sid,
  Link (sv_ser s) (cl_de c) -> ser_ok (cl_ser c) -> playing_on c sid -> sid < 4294967296 -> Forall item_wf items ->
  exists s' c', play_run s c sid items clock =
    Some (s', c', map (fun i => match i with Item video data ts _ => cmedia_event video data ts end) items).
Proof. exact play_sequence_delivered. Qed.

Theorem C02_publish_any_partition : forall items c s clock sid app key pieces,
  Link (cl_ser c) (sv_de s) -> ser_ok (sv_ser s) -> publishing_stream c = Ok sid -> sid < 4294967296 ->
  sv_connected s = true -> publishing_key s sid = Some (app, key) -> Forall item_wf items ->
  exists c' packets s',
    client_packets c items = Some (c', packets) /\
    (List.concat pieces = List.concat packets ->
     feed_server s pieces clock [] = (s', map (fun i => match i with Item video data ts _ => media_event video app key data ts end) items, VOk)).
Proof. exact publish_sequence_any_partition. Qed.

Theorem C02_play_any_partition : forall items s c clock sid pieces,
  Link (sv_ser s) (cl_de c) -> ser_ok (cl_ser c) -> playing_on c sid -> sid < 4294967296 -> Forall item_wf items ->
  exists s' packets c',
    server_packets s sid items = Some (s', packets) /\
    (List.concat pieces = List.concat packets ->
     feed_client c pieces clock [] = (c', map (fun i => match i with Item video data ts _ => cmedia_event video data ts end) items, CVOk)).
Proof. exact play_sequence_any_partition. Qed.

(* metadata: what the client publishes is what the server raises (u32 fields and flags exactly; the f32 frame rate whenever its bits
   survive f32 -> f64 -> f32, i.e. for every non-NaN value); the call fails only when the AMF0 body exceeds the chunk layer's limit *)
Theorem C02_publish_metadata : forall c s md clock sclock sid app key,
  Link (cl_ser c) (sv_de s) -> ser_ok (sv_ser s) ->
  publishing_stream c = Ok sid -> sid < 4294967296 -> clock < 4294967296 -> md_ok md -> enc_ok md ->
  sv_connected s = true -> publishing_key s sid = Some (app, key) ->
  (exists e, client_publish_metadata c md clock = (c, CErr e)) \/
  exists b c' s' rs,
    client_publish_metadata c md clock = (c', COk [CPacket b false]) /\
    server_handle_input s b sclock = (s', ROk rs) /\
    events rs = [EvMetadata app key md] /\
    Link (cl_ser c') (sv_de s') /\ ser_ok (sv_ser s') /\ publishing_stream c' = Ok sid /\
    sv_connected s' = true /\ publishing_key s' sid = Some (app, key).
Proof. exact publish_metadata_delivered. Qed.

Theorem C02_metadata_mapping_identity : forall m, md_ok m -> metadata_of_props (metadata_props_client m) = m.
Proof. exact metadata_roundtrip_client. Qed.

Theorem C02_transport : forall ser de ops packets ser' pieces,
  Link ser de -> Forall op_wf ops -> ser_run ser ops = Ok (packets, ser') -> List.concat pieces = List.concat packets ->
  exists de', feed_all de pieces [] = (de', map op_msg ops, None) /\ Link ser' de'.
Proof. exact link_run. Qed.

Theorem C02_client_call_transport : forall c op de pieces,
  cop_ok op -> cinv c -> ser_ok (cl_ser c) -> Link (cl_ser c) de ->
  match client_step c op with
  | (c', COk rs) =>
      List.concat pieces = List.concat (map fst (cpkts rs)) ->
      exists de' msgs, feed_all de pieces [] = (de', msgs, None) /\ List.length msgs = List.length (cpkts rs) /\ Link (cl_ser c') de' /\ cinv c'
  | _ => True
  end.
Proof. exact client_call_transport. Qed.

Theorem C02_server_call_transport : forall s op de pieces,
  sop_ok op -> sinv s -> ser_ok (sv_ser s) -> Link (sv_ser s) de ->
  match server_step s op with
  | (s', ROk rs) =>
      List.concat pieces = List.concat (map fst (pkts rs)) ->
      exists de' msgs, feed_all de pieces [] = (de', msgs, None) /\ List.length msgs = List.length (pkts rs) /\ Link (sv_ser s') de' /\ sinv s'
  | _ => True
  end.
Proof. exact server_call_transport. Qed.

Theorem C02_connect_request_delivered : forall c s app clock sclock,
  Link (cl_ser c) (sv_de s) -> ser_ok (sv_ser s) -> cl_state c = Disconnected -> strings_ok c app -> clock < 4294967296 ->
  (exists e, client_request_connection c app clock = (fst (client_request_connection c app clock), CErr e)) \/
  exists b c1 s1 rs,
    client_request_connection c app clock = (c1, COk [CPacket b false]) /\
    cl_state c1 = Disconnected /\ lookup (cl_next_tr c) (cl_trs c1) = Some (TConnection app) /\
    server_handle_input s b sclock = (s1, ROk rs) /\
    events rs = [EvConnectionRequested (sv_next_req s) (strip_slash app)] /\
    lookup (sv_next_req s) (sv_reqs s1) = Some (RConnection (strip_slash app) (u32_to_f64 (cl_next_tr c))) /\
    sv_connected s1 = sv_connected s /\ sv_fms s1 = sv_fms s /\ sv_objenc s1 = 0 /\
    Link (cl_ser c1) (sv_de s1) /\ ser_ok (sv_ser s1) /\ cl_de c1 = cl_de c /\ cl_cfg c1 = cl_cfg c /\
    (ack_window (sv_ack s) = None -> sv_ser s1 = sv_ser s /\ rs = [SEvent (EvConnectionRequested (sv_next_req s) (strip_slash app))]).
Proof. exact connect_request_delivered. Qed.

Theorem C02_connect_accept_delivered : forall s c n app' trn app clock cclock,
  Link (sv_ser s) (cl_de c) -> ser_ok (cl_ser c) -> ser_ok (sv_ser s) ->
  lookup n (sv_reqs s) = Some (RConnection app' (u32_to_f64 trn)) -> trn < 4294967296 ->
  lookup trn (cl_trs c) = Some (TConnection app) ->
  accept_strings_ok s app' -> clock < 4294967296 -> cclock < 4294967296 ->
  1 <= cc_chunk (cl_cfg c) <= 2147483647 ->
  (exists e, snd (server_accept s n clock) = RErr e) \/
  exists b s2 c2 rs b1 b2 pre,
    server_accept s n clock = (s2, ROk [SPacket b false]) /\
    sv_connected s2 = true /\ sv_app s2 = Some app' /\ lookup n (sv_reqs s2) = None /\
    client_handle_input c b cclock = (c2, COk rs) /\
    rs = pre ++ [CPacket b1 false; CEvent CConnectionAccepted; CPacket b2 false] /\ cevents pre = [] /\
    cl_state c2 = Connected /\ cl_app c2 = Some app /\ lookup trn (cl_trs c2) = None /\
    Link (sv_ser s2) (cl_de c2) /\ ser_ok (cl_ser c2) /\ s_max (cl_ser c2) = cc_chunk (cl_cfg c) /\
    cl_cfg c2 = cl_cfg c /\ cl_next_tr c2 = cl_next_tr c /\ cl_stream c2 = cl_stream c /\
    sv_de s2 = sv_de s /\ sv_ack s2 = sv_ack s /\ sv_streams s2 = sv_streams s /\ sv_next_stream s2 = sv_next_stream s /\ ser_ok (sv_ser s2) /\
    (snd (ack_step (cl_ack c) (lenN b)) = None -> pre = [] /\ exists ser1,
       send_message (cl_ser c) (MWindowAcknowledgement (cc_window (cl_cfg c))) cclock 0 false false = Ok (b1, ser1) /\
       ChunkSer.set_max_chunk_size ser1 (cc_chunk (cl_cfg c)) 0 = Ok (b2, cl_ser c2)).
Proof. exact connect_accept_delivered. Qed.

Theorem C02_connect_completes : forall c s app clock sclock aclock cclock,
  Link (cl_ser c) (sv_de s) -> Link (sv_ser s) (cl_de c) -> ser_ok (cl_ser c) -> ser_ok (sv_ser s) ->
  cl_state c = Disconnected -> strings_ok c app -> ack_window (sv_ack s) = None ->
  utf8_valid (sv_fms s) = true -> utf8_valid (str "Successfully connected on app: " ++ strip_slash app) = true ->
  clock < 4294967296 -> aclock < 4294967296 -> cclock < 4294967296 -> 1 <= cc_chunk (cl_cfg c) <= 2147483647 ->
  (* either a declared error (a body exceeding the chunk layer's 16 MiB limit) ... *)
  (exists e, client_request_connection c app clock = (fst (client_request_connection c app clock), CErr e)) \/
  (exists b c1 s1 rs e, client_request_connection c app clock = (c1, COk [CPacket b false]) /\
     server_handle_input s b sclock = (s1, ROk rs) /\ snd (server_accept s1 (sv_next_req s) aclock) = RErr e) \/
  (* ... or the whole exchange *)
  exists b1 c1 s1 b2 s2 c2 rs pre w1 w2,
    client_request_connection c app clock = (c1, COk [CPacket b1 false]) /\
    server_handle_input s b1 sclock = (s1, ROk [SEvent (EvConnectionRequested (sv_next_req s) (strip_slash app))]) /\
    server_accept s1 (sv_next_req s) aclock = (s2, ROk [SPacket b2 false]) /\
    client_handle_input c1 b2 cclock = (c2, COk rs) /\
    rs = pre ++ [CPacket w1 false; CEvent CConnectionAccepted; CPacket w2 false] /\ cevents pre = [] /\
    cl_state c2 = Connected /\ cl_app c2 = Some app /\
    sv_connected s2 = true /\ sv_app s2 = Some (strip_slash app) /\
    Link (sv_ser s2) (cl_de c2) /\ s_max (cl_ser c2) = cc_chunk (cl_cfg c).
Proof. exact connect_completes. Qed.

Theorem C02_server_receives_message : forall s ser m ts sid f d b ser' clock,
  Link ser (sv_de s) -> ser_ok (sv_ser s) -> msg_ok m -> plain m -> ts < 4294967296 -> sid < 4294967296 ->
  send_message ser m ts sid f d = Ok (b, ser') ->
  exists p de1 de3 s0 pre,
    of_payload (m_tid p) (m_data p) = Ok m /\ m_sid p = sid /\ m_ts p = ts /\
    same_core s s0 /\ sv_de s0 = sv_de s /\ ser_ok (sv_ser s0) /\ events pre = [] /\
    (quiet (sv_ack s) b -> pre = [] /\ sv_ser s0 = sv_ser s) /\
    sv_ack s0 = fst (ack_step (sv_ack s) (lenN b)) /\
    Link ser' de3 /\
    server_handle_input s b clock =
      (let '(s1, r) := h_message (upd_de s0 de1) p clock in
       match r with ROk rs => (upd_de s1 de3, ROk (pre ++ rs)) | _ => (s1, r) end).
Proof. exact server_receives. Qed.

Theorem C02_client_receives_message : forall c ser m ts sid f d b ser' clock,
  Link ser (cl_de c) -> ser_ok (cl_ser c) -> msg_ok m -> plain m -> ts < 4294967296 -> sid < 4294967296 ->
  send_message ser m ts sid f d = Ok (b, ser') ->
  exists p de1 de3 c0 pre,
    of_payload (m_tid p) (m_data p) = Ok m /\ m_sid p = sid /\ m_ts p = ts /\
    (cl_cfg c0 = cl_cfg c /\ cl_next_tr c0 = cl_next_tr c /\ cl_trs c0 = cl_trs c /\ cl_state c0 = cl_state c /\
     cl_app c0 = cl_app c /\ cl_stream c0 = cl_stream c) /\ cl_de c0 = cl_de c /\ ser_ok (cl_ser c0) /\ cevents pre = [] /\
    (quiet (cl_ack c) b -> pre = [] /\ cl_ser c0 = cl_ser c) /\
    cl_ack c0 = fst (ack_step (cl_ack c) (lenN b)) /\
    Link ser' de3 /\
    client_handle_input c b clock =
      (let '(c1, r) := ch_message (cupd_de c0 de1) p clock in
       match r with COk rs => (cupd_de c1 de3, COk (pre ++ rs)) | _ => (c1, r) end).
Proof. exact client_receives. Qed.

Theorem C02_publish_completes : forall c s app key t k1 k2 k3 k4 k5 k6 k7,
  Link (cl_ser c) (sv_de s) -> Link (sv_ser s) (cl_de c) -> ser_ok (cl_ser c) -> ser_ok (sv_ser s) ->
  cl_state c = Connected -> cl_next_tr c < 4294967296 -> sv_next_stream s < 4294967296 ->
  sv_connected s = true -> sv_app s = Some app -> utf8_valid key = true -> lenN key <= 65000 ->
  k1 < 4294967296 -> k2 < 4294967296 -> k3 < 4294967296 -> k5 < 4294967296 ->
  exists c1 b1 s1 r2,
    client_request_publishing c key t k1 = (c1, COk [CPacket b1 false]) /\
    server_handle_input s b1 k2 = (s1, ROk r2) /\ events r2 = [] /\
  (quiet (sv_ack s) b1 ->
  exists b2 c2 r3, r2 = [SPacket b2 false] /\
    client_handle_input c1 b2 k3 = (c2, COk r3) /\ cevents r3 = [] /\
  (quiet (cl_ack c1) b2 ->
  exists b3 s2 r4, r3 = [CPacket b3 false] /\
    server_handle_input s1 b3 k4 = (s2, ROk r4) /\ events r4 = [EvPublishRequested (sv_next_req s) app key (mode_of_type t)] /\
  (quiet (sv_ack s1) b3 ->
  r4 = [SEvent (EvPublishRequested (sv_next_req s) app key (mode_of_type t))] /\
  exists s3 b4 b5, server_accept s2 (sv_next_req s) k5 = (s3, ROk [SPacket b4 false; SPacket b5 false]) /\
  exists c3 r6, client_handle_input c2 b4 k6 = (c3, COk r6) /\ cevents r6 = [] /\
  (quiet (cl_ack c2) b4 -> r6 = [] /\
  exists c4 r7, client_handle_input c3 b5 k7 = (c4, COk r7) /\ cevents r7 = [CPublishAccepted] /\
  (quiet (cl_ack c3) b5 -> r7 = [CEvent CPublishAccepted] /\
  publishing_stream c4 = Ok (sv_next_stream s) /\ publishing_key s3 (sv_next_stream s) = Some (app, key) /\
  Link (cl_ser c4) (sv_de s3) /\ Link (sv_ser s3) (cl_de c4) /\ ser_ok (cl_ser c4) /\ ser_ok (sv_ser s3) /\ sv_connected s3 = true))))).
Proof. exact publish_completes. Qed.

Theorem C02_play_completes : forall c s app key k1 k2 k3 k4 k5 k6 t1 t2 t3 t4 t5,
  Link (cl_ser c) (sv_de s) -> Link (sv_ser s) (cl_de c) -> ser_ok (cl_ser c) -> ser_ok (sv_ser s) ->
  cl_state c = Connected -> cl_next_tr c < 4294967296 -> sv_next_stream s < 4294967296 -> cc_buffer (cl_cfg c) < 4294967296 ->
  sv_connected s = true -> sv_app s = Some app -> utf8_valid key = true -> lenN key <= 65000 ->
  k1 < 4294967296 -> k2 < 4294967296 -> k3 < 4294967296 -> k6 < 4294967296 ->
  exists c1 b1 s1 r2,
    client_request_playback c key k1 = (c1, COk [CPacket b1 false]) /\
    server_handle_input s b1 k2 = (s1, ROk r2) /\ events r2 = [] /\
  (quiet (sv_ack s) b1 ->
  exists b2 c2 r3, r2 = [SPacket b2 false] /\
    client_handle_input c1 b2 k3 = (c2, COk r3) /\ cevents r3 = [] /\
  (quiet (cl_ack c1) b2 ->
  exists b3 b4 s2 r4, r3 = [CPacket b3 false; CPacket b4 false] /\
    server_handle_input s1 b3 k4 = (s2, ROk r4) /\ events r4 = [] /\
  (quiet (sv_ack s1) b3 -> r4 = [] /\
  exists s3 r5, server_handle_input s2 b4 k5 = (s3, ROk r5) /\
    events r5 = [EvPlayRequested (sv_next_req s) app key LiveOrRecorded None false (sv_next_stream s)] /\
  (quiet (sv_ack s2) b4 ->
  r5 = [SEvent (EvPlayRequested (sv_next_req s) app key LiveOrRecorded None false (sv_next_stream s))] /\
  exists s4 p1 p2 p3 p4 p5,
    server_accept s3 (sv_next_req s) k6 = (s4, ROk [SPacket p1 false; SPacket p2 false; SPacket p3 false; SPacket p4 false; SPacket p5 false]) /\
  exists c3 q1, client_handle_input c2 p1 t1 = (c3, COk q1) /\ cevents q1 = [CUnhandleableStatus (str "NetStream.Play.Reset")] /\
  (quiet (cl_ack c2) p1 -> q1 = [CEvent (CUnhandleableStatus (str "NetStream.Play.Reset"))] /\
  exists c4 q2, client_handle_input c3 p2 t2 = (c4, COk q2) /\ cevents q2 = [] /\
  (quiet (cl_ack c3) p2 -> q2 = [] /\
  exists c5 q3, client_handle_input c4 p3 t3 = (c5, COk q3) /\ cevents q3 = [CPlaybackAccepted] /\
  (quiet (cl_ack c4) p3 -> q3 = [CEvent CPlaybackAccepted] /\
  exists c6 q4, client_handle_input c5 p4 t4 = (c6, COk q4) /\ cevents q4 = [] /\
  (quiet (cl_ack c5) p4 -> q4 = [] /\
  exists c7 q5, client_handle_input c6 p5 t5 = (c7, COk q5) /\ cevents q5 = [] /\
  (quiet (cl_ack c6) p5 -> q5 = [] /\
  cl_state c7 = Playing /\ playing_on c7 (sv_next_stream s) /\
  lookup (sv_next_stream s) (sv_streams s4) = Some (StPlaying key) /\ sv_app s4 = Some app /\ sv_connected s4 = true /\
  Link (cl_ser c7) (sv_de s4) /\ Link (sv_ser s4) (cl_de c7) /\ ser_ok (cl_ser c7) /\ ser_ok (sv_ser s4)))))))))).
Proof. exact play_completes. Qed.

Theorem C02_stop_publishing_raises_finished : forall c s sid app key mode clock sclock,
  Link (cl_ser c) (sv_de s) -> ser_ok (cl_ser c) -> ser_ok (sv_ser s) ->
  cl_state c = Publishing -> cl_stream c = Some sid -> sid < 4294967296 -> clock < 4294967296 ->
  sv_connected s = true -> sv_app s = Some app -> lookup sid (sv_streams s) = Some (StPublishing key mode) ->
  exists c1 b s1 r2, client_stop_publishing c clock = (c1, COk [CPacket b false]) /\ cl_state c1 = Connected /\ cl_stream c1 = None /\
    server_handle_input s b sclock = (s1, ROk r2) /\
    events r2 = [EvPublishFinished app key] /\ lookup sid (sv_streams s1) = None /\ Link (cl_ser c1) (sv_de s1) /\
    (quiet (sv_ack s) b -> r2 = [SEvent (EvPublishFinished app key)]).
Proof. exact stop_publishing_raises_finished. Qed.

Theorem C02_stop_playback_raises_finished : forall c s sid app key clock sclock,
  Link (cl_ser c) (sv_de s) -> ser_ok (cl_ser c) -> ser_ok (sv_ser s) ->
  cl_state c = Playing -> cl_stream c = Some sid -> sid < 4294967296 -> clock < 4294967296 ->
  sv_connected s = true -> sv_app s = Some app -> lookup sid (sv_streams s) = Some (StPlaying key) ->
  exists c1 b s1 r2, client_stop_playback c clock = (c1, COk [CPacket b false]) /\ cl_state c1 = Connected /\ cl_stream c1 = None /\
    server_handle_input s b sclock = (s1, ROk r2) /\
    events r2 = [EvPlayFinished app key] /\ lookup sid (sv_streams s1) = None /\ Link (cl_ser c1) (sv_de s1) /\
    (quiet (sv_ack s) b -> r2 = [SEvent (EvPlayFinished app key)]).
Proof. exact stop_playback_raises_finished. Qed.

Example C02_publish_run_example :
  Link (cl_ser ex_client) (sv_de ex_server) /\ Link (sv_ser ex_server) (cl_de ex_client) /\
  exists c1 b1 s1 b2 c2 b3 s2 ev s3 b4 b5 c3 c4,
    client_request_publishing ex_client (str "key") TLive 10 = (c1, COk [CPacket b1 false]) /\
    server_handle_input ex_server b1 11 = (s1, ROk [SPacket b2 false]) /\ quiet (sv_ack ex_server) b1 /\
    client_handle_input c1 b2 12 = (c2, COk [CPacket b3 false]) /\ quiet (cl_ack c1) b2 /\
    server_handle_input s1 b3 13 = (s2, ROk [SEvent ev]) /\ quiet (sv_ack s1) b3 /\
    ev = EvPublishRequested 1 (str "live") (str "key") PLive /\
    server_accept s2 1 14 = (s3, ROk [SPacket b4 false; SPacket b5 false]) /\
    client_handle_input c2 b4 15 = (c3, COk []) /\ quiet (cl_ack c2) b4 /\
    client_handle_input c3 b5 16 = (c4, COk [CEvent CPublishAccepted]) /\ quiet (cl_ack c3) b5 /\
    publishing_stream c4 = Ok 1 /\ publishing_key s3 1 = Some (str "live", str "key").
Proof. exact publish_premises_satisfiable. Qed.

Example C02_play_run_example :
  exists c1 b1 s1 b2 c2 b3 b4 s2 s3 s4 p1 p2 p3 p4 p5 c3 c4 c5 c6 c7,
    client_request_playback ex_client (str "key") 10 = (c1, COk [CPacket b1 false]) /\
    server_handle_input ex_server b1 11 = (s1, ROk [SPacket b2 false]) /\ quiet (sv_ack ex_server) b1 /\
    client_handle_input c1 b2 12 = (c2, COk [CPacket b3 false; CPacket b4 false]) /\ quiet (cl_ack c1) b2 /\
    server_handle_input s1 b3 13 = (s2, ROk []) /\ quiet (sv_ack s1) b3 /\
    server_handle_input s2 b4 14 = (s3, ROk [SEvent (EvPlayRequested 1 (str "live") (str "key") LiveOrRecorded None false 1)]) /\ quiet (sv_ack s2) b4 /\
    server_accept s3 1 15 = (s4, ROk [SPacket p1 false; SPacket p2 false; SPacket p3 false; SPacket p4 false; SPacket p5 false]) /\
    client_handle_input c2 p1 16 = (c3, COk [CEvent (CUnhandleableStatus (str "NetStream.Play.Reset"))]) /\ quiet (cl_ack c2) p1 /\
    client_handle_input c3 p2 17 = (c4, COk []) /\ quiet (cl_ack c3) p2 /\
    client_handle_input c4 p3 18 = (c5, COk [CEvent CPlaybackAccepted]) /\ quiet (cl_ack c4) p3 /\
    client_handle_input c5 p4 19 = (c6, COk []) /\ quiet (cl_ack c5) p4 /\
    client_handle_input c6 p5 20 = (c7, COk []) /\ quiet (cl_ack c6) p5 /\
    cl_state c7 = Playing /\ cl_stream c7 = Some 1 /\ lookup 1 (sv_streams s4) = Some (StPlaying (str "key")).
Proof. exact play_premises_satisfiable. Qed.

Theorem C02_sessions_start : forall cfg ccfg clock k,
  1 <= cfg_chunk cfg <= 2147483647 -> cfg_window cfg < 4294967296 -> cfg_bandwidth cfg < 4294967296 -> clock < 4294967296 ->
  exists s0 rs c',
    server_new cfg clock = (s0, ROk rs) /\ events rs = [] /\
    cdeliver (client_new ccfg) (spackets rs) k = Some c' /\
    cl_state c' = Disconnected /\ cl_trs c' = [] /\ cl_next_tr c' = 1 /\ cl_cfg c' = ccfg /\ cl_stream c' = None /\
    Link (sv_ser s0) (cl_de c') /\ ser_ok (cl_ser c') /\ ser_ok (sv_ser s0) /\
    ack_window (sv_ack s0) = None /\ sv_connected s0 = false /\ sv_next_req s0 = 0 /\ sv_next_stream s0 = 1 /\ sv_fms s0 = cfg_fms cfg /\
    (cquiet (client_new ccfg) (spackets rs) k -> Link (cl_ser c') (sv_de s0)).
Proof. exact sessions_start. Qed.

Theorem C02_connect_ready : forall s c n app' trn app clock cclock k1 k2,
  Link (sv_ser s) (cl_de c) -> Link (cl_ser c) (sv_de s) -> ser_ok (cl_ser c) -> ser_ok (sv_ser s) ->
  lookup n (sv_reqs s) = Some (RConnection app' (u32_to_f64 trn)) -> trn < 4294967296 ->
  lookup trn (cl_trs c) = Some (TConnection app) ->
  accept_strings_ok s app' -> lenN (sv_fms s) <= 65535 -> lenN app' <= 65000 ->
  clock < 4294967296 -> cclock < 4294967296 ->
  1 <= cc_chunk (cl_cfg c) <= 2147483647 -> cc_window (cl_cfg c) < 4294967296 ->
  exists b s2 c2 rs,
    server_accept s n clock = (s2, ROk [SPacket b false]) /\
    client_handle_input c b cclock = (c2, COk rs) /\ cevents rs = [CConnectionAccepted] /\
    cl_state c2 = Connected /\ cl_app c2 = Some app /\ sv_connected s2 = true /\ sv_app s2 = Some app' /\
  (quiet (cl_ack c) b ->
  exists w1 w2, rs = [CPacket w1 false; CEvent CConnectionAccepted; CPacket w2 false] /\
  exists s3 r3, server_handle_input s2 w1 k1 = (s3, ROk r3) /\ events r3 = [] /\
  (quiet (sv_ack s2) w1 -> r3 = [] /\
  exists s4 r4, server_handle_input s3 w2 k2 = (s4, ROk r4) /\ events r4 = [] /\
  (quiet (sv_ack s3) w2 -> r4 = [] /\
   Link (cl_ser c2) (sv_de s4) /\ Link (sv_ser s4) (cl_de c2) /\ ser_ok (cl_ser c2) /\ ser_ok (sv_ser s4) /\
   sv_connected s4 = true /\ sv_app s4 = Some app' /\ sv_next_stream s4 = sv_next_stream s /\
   cl_next_tr c2 = cl_next_tr c /\ cl_cfg c2 = cl_cfg c /\ ack_window (sv_ack s4) = Some (cc_window (cl_cfg c))))).
Proof. exact connect_ready. Qed.

Theorem C02_server_receives_chunk_size : forall s ser n ts b ser' clock,
  Link ser (sv_de s) -> ser_ok (sv_ser s) -> 1 <= n <= 2147483647 -> ts < 4294967296 ->
  ChunkSer.set_max_chunk_size ser n ts = Ok (b, ser') ->
  exists s2 r, server_handle_input s b clock = (s2, ROk r) /\
  events r = [] /\ same_core s s2 /\ Link ser' (sv_de s2) /\ ser_ok (sv_ser s2) /\
  (quiet (sv_ack s) b -> r = [] /\ sv_ser s2 = sv_ser s /\ sv_ack s2 = fst (ack_step (sv_ack s) (lenN b))).
Proof. exact server_receives_chunk_size. Qed.

Theorem C02_client_receives_chunk_size : forall c ser n ts b ser' clock,
  Link ser (cl_de c) -> ser_ok (cl_ser c) -> 1 <= n <= 2147483647 -> ts < 4294967296 ->
  ChunkSer.set_max_chunk_size ser n ts = Ok (b, ser') ->
  exists c2 r, client_handle_input c b clock = (c2, COk r) /\
  cevents r = [] /\
  (cl_cfg c2 = cl_cfg c /\ cl_next_tr c2 = cl_next_tr c /\ cl_trs c2 = cl_trs c /\ cl_state c2 = cl_state c /\
   cl_app c2 = cl_app c /\ cl_stream c2 = cl_stream c) /\ Link ser' (cl_de c2) /\ ser_ok (cl_ser c2) /\
  (quiet (cl_ack c) b -> r = [] /\ cl_ser c2 = cl_ser c /\ cl_ack c2 = fst (ack_step (cl_ack c) (lenN b))).
Proof. exact client_receives_chunk_size. Qed.

Example C02_start_quiet :
  let cfg := {| cfg_fms := str "FMS/3,0,1,123"; cfg_chunk := 4096; cfg_bandwidth := 2500000; cfg_window := 2500000; cfg_bwdone := true |} in
  let ccfg := {| cc_flash := str "v"; cc_buffer := 1000; cc_window := 2500000; cc_chunk := 4096; cc_tcurl := None |} in
  match server_new cfg 0 with
  | (_, ROk rs) => cquiet (client_new ccfg) (spackets rs) 1 /\ List.length (spackets rs) = 5%nat
  | _ => False
  end.
Proof. exact start_quiet. Qed.

Theorem C02_connect_completes_decided : forall c s app clock sclock aclock cclock,
  Link (cl_ser c) (sv_de s) -> Link (sv_ser s) (cl_de c) -> ser_ok (cl_ser c) -> ser_ok (sv_ser s) ->
  cl_state c = Disconnected -> strings_ok c app -> sizes_ok c app -> ack_window (sv_ack s) = None ->
  utf8_valid (sv_fms s) = true -> lenN (sv_fms s) <= 65535 ->
  clock < 4294967296 -> aclock < 4294967296 -> cclock < 4294967296 -> 1 <= cc_chunk (cl_cfg c) <= 2147483647 ->
  exists b1 c1 s1 b2 s2 c2 rs pre w1 w2,
    client_request_connection c app clock = (c1, COk [CPacket b1 false]) /\
    server_handle_input s b1 sclock = (s1, ROk [SEvent (EvConnectionRequested (sv_next_req s) (strip_slash app))]) /\
    server_accept s1 (sv_next_req s) aclock = (s2, ROk [SPacket b2 false]) /\
    client_handle_input c1 b2 cclock = (c2, COk rs) /\
    rs = pre ++ [CPacket w1 false; CEvent CConnectionAccepted; CPacket w2 false] /\ cevents pre = [] /\
    cl_state c2 = Connected /\ cl_app c2 = Some app /\
    sv_connected s2 = true /\ sv_app s2 = Some (strip_slash app) /\
    Link (sv_ser s2) (cl_de c2) /\ s_max (cl_ser c2) = cc_chunk (cl_cfg c).
Proof. exact connect_completes_decided. Qed.

Theorem C02_publish_completes_windows : forall c s app key t k1 k2 k3 k4 k5 k6 k7,
  Link (cl_ser c) (sv_de s) -> Link (sv_ser s) (cl_de c) -> ser_ok (cl_ser c) -> ser_ok (sv_ser s) ->
  cl_state c = Connected -> cl_next_tr c < 4294967296 -> sv_next_stream s < 4294967296 ->
  sv_connected s = true -> sv_app s = Some app -> utf8_valid key = true -> lenN key <= 65000 ->
  k1 < 4294967296 -> k2 < 4294967296 -> k3 < 4294967296 -> k5 < 4294967296 ->
  (forall w, ack_window (sv_ack s) = Some w -> ack_since (sv_ack s) + 2 * (17 * (lenN key + 200) + 16) < w) ->
  (forall w, ack_window (cl_ack c) = Some w -> ack_since (cl_ack c) + 3 * (17 * (lenN key + 200) + 16) < w) ->
  exists c1 b1 s1 b2 c2 b3 s2 s3 b4 b5 c3 c4,
    client_request_publishing c key t k1 = (c1, COk [CPacket b1 false]) /\
    server_handle_input s b1 k2 = (s1, ROk [SPacket b2 false]) /\
    client_handle_input c1 b2 k3 = (c2, COk [CPacket b3 false]) /\
    server_handle_input s1 b3 k4 = (s2, ROk [SEvent (EvPublishRequested (sv_next_req s) app key (mode_of_type t))]) /\
    server_accept s2 (sv_next_req s) k5 = (s3, ROk [SPacket b4 false; SPacket b5 false]) /\
    client_handle_input c2 b4 k6 = (c3, COk []) /\
    client_handle_input c3 b5 k7 = (c4, COk [CEvent CPublishAccepted]) /\
    publishing_stream c4 = Ok (sv_next_stream s) /\ publishing_key s3 (sv_next_stream s) = Some (app, key) /\
    Link (cl_ser c4) (sv_de s3) /\ Link (sv_ser s3) (cl_de c4) /\ ser_ok (cl_ser c4) /\ ser_ok (sv_ser s3) /\ sv_connected s3 = true.
Proof. exact publish_completes_windows. Qed.

Theorem C02_play_completes_windows : forall c s app key k1 k2 k3 k4 k5 k6 t1 t2 t3 t4 t5,
  Link (cl_ser c) (sv_de s) -> Link (sv_ser s) (cl_de c) -> ser_ok (cl_ser c) -> ser_ok (sv_ser s) ->
  cl_state c = Connected -> cl_next_tr c < 4294967296 -> sv_next_stream s < 4294967296 -> cc_buffer (cl_cfg c) < 4294967296 ->
  sv_connected s = true -> sv_app s = Some app -> utf8_valid key = true -> lenN key <= 65000 ->
  k1 < 4294967296 -> k2 < 4294967296 -> k3 < 4294967296 -> k6 < 4294967296 ->
  (forall w, ack_window (sv_ack s) = Some w -> ack_since (sv_ack s) + 3 * (17 * (lenN key + 200) + 16) < w) ->
  (forall w, ack_window (cl_ack c) = Some w -> ack_since (cl_ack c) + 6 * (17 * (lenN key + 200) + 16) < w) ->
  exists c1 b1 s1 b2 c2 b3 b4 s2 s3 s4 p1 p2 p3 p4 p5 c3 c4 c5 c6 c7,
    client_request_playback c key k1 = (c1, COk [CPacket b1 false]) /\
    server_handle_input s b1 k2 = (s1, ROk [SPacket b2 false]) /\
    client_handle_input c1 b2 k3 = (c2, COk [CPacket b3 false; CPacket b4 false]) /\
    server_handle_input s1 b3 k4 = (s2, ROk []) /\
    server_handle_input s2 b4 k5 = (s3, ROk [SEvent (EvPlayRequested (sv_next_req s) app key LiveOrRecorded None false (sv_next_stream s))]) /\
    server_accept s3 (sv_next_req s) k6 = (s4, ROk [SPacket p1 false; SPacket p2 false; SPacket p3 false; SPacket p4 false; SPacket p5 false]) /\
    client_handle_input c2 p1 t1 = (c3, COk [CEvent (CUnhandleableStatus (str "NetStream.Play.Reset"))]) /\
    client_handle_input c3 p2 t2 = (c4, COk []) /\
    client_handle_input c4 p3 t3 = (c5, COk [CEvent CPlaybackAccepted]) /\
    client_handle_input c5 p4 t4 = (c6, COk []) /\
    client_handle_input c6 p5 t5 = (c7, COk []) /\
    cl_state c7 = Playing /\ playing_on c7 (sv_next_stream s) /\
    lookup (sv_next_stream s) (sv_streams s4) = Some (StPlaying key) /\ sv_app s4 = Some app /\ sv_connected s4 = true /\
    Link (cl_ser c7) (sv_de s4) /\ Link (sv_ser s4) (cl_de c7) /\ ser_ok (cl_ser c7) /\ ser_ok (sv_ser s4).
Proof. exact play_completes_windows. Qed.

Theorem C02_quiet_of_headroom : forall a b,
  (forall w, ack_window a = Some w -> ack_since a + lenN b < w) -> quiet a b.
Proof. exact quiet_of_headroom. Qed.

Theorem C02_quiet_when_headroom : forall ser m ts sid f d b ser' a tid body,
  ser_ok ser -> send_message ser m ts sid f d = Ok (b, ser') -> to_payload m = Ok (tid, body) ->
  (forall w, ack_window a = Some w -> ack_since a + 17 * lenN body + 16 < w) -> quiet a b.
Proof. exact quiet_when_headroom. Qed.

Theorem C02_play_metadata : forall s c sid md clock cclock s1 r1,
  Link (sv_ser s) (cl_de c) -> ser_ok (cl_ser c) -> playing_on c sid -> sid < 4294967296 -> clock < 4294967296 ->
  md_ok md -> enc_ok md ->
  server_send_metadata s sid md clock = (s1, ROk r1) ->
  exists b c2 r2, r1 = [SPacket b false] /\ same_core s s1 /\ sv_de s1 = sv_de s /\
    client_handle_input c b cclock = (c2, COk r2) /\
    cevents r2 = [CMetadata md] /\ playing_on c2 sid /\ cl_state c2 = cl_state c /\
    Link (sv_ser s1) (cl_de c2) /\ ser_ok (cl_ser c2) /\
    (quiet (cl_ack c) b -> r2 = [CEvent (CMetadata md)] /\ cl_ser c2 = cl_ser c).
Proof. exact play_metadata_delivered. Qed.

Theorem C02_metadata_mapping_identity_server : forall m,
  md_ok m -> metadata_of_props (metadata_props_server m) = m.
Proof. exact metadata_roundtrip_server. Qed.

Theorem C02_server_packet_any_fragmentation : forall s ser b pieces clock s' rs,
  Link ser (sv_de s) -> ser_ok (sv_ser s) -> List.concat pieces = b ->
  server_handle_input s b clock = (s', ROk rs) ->
  exists s2, feed_server s pieces clock [] = (s2, events rs, VOk) /\ same_core s' s2.
Proof. exact server_packet_any_fragmentation. Qed.

Theorem C02_client_packet_any_fragmentation : forall c ser b pieces clock c' rs,
  Link ser (cl_de c) -> ser_ok (cl_ser c) -> List.concat pieces = b ->
  client_handle_input c b clock = (c', COk rs) ->
  exists c2, feed_client c pieces clock [] = (c2, cevents rs, CVOk) /\ csame_core c' c2.
Proof. exact client_packet_any_fragmentation. Qed.

Theorem C02_server_notes_acknowledgement : forall ser ser' b s n ts f sclock,
  Link ser (sv_de s) -> ser_ok (sv_ser s) -> n < 4294967296 -> ts < 4294967296 ->
  send_message ser (MAcknowledgement n) ts 0 f false = Ok (b, ser') ->
  exists s2 r, server_handle_input s b sclock = (s2, ROk r) /\
  events r = [EvAcknowledgement n] /\ same_core s s2 /\ Link ser' (sv_de s2) /\ ser_ok (sv_ser s2) /\
  (quiet (sv_ack s) b -> r = [SEvent (EvAcknowledgement n)] /\ sv_ser s2 = sv_ser s).
Proof. exact server_notes_acknowledgement. Qed.

Theorem C02_client_notes : forall ser ser' b c m ts cclock f,
  noted m -> Link ser (cl_de c) -> ser_ok (cl_ser c) -> ts < 4294967296 ->
  send_message ser m ts 0 f false = Ok (b, ser') ->
  exists c2 r, client_handle_input c b cclock = (c2, COk r) /\
  (forall e, In e (cevents r) -> match e with CConnectionAccepted | CConnectionRejected _ | CPublishAccepted | CPlaybackAccepted | CVideo _ _ | CAudio _ _ | CMetadata _ => False | _ => True end) /\
  ccore c c2 /\ Link ser' (cl_de c2) /\ ser_ok (cl_ser c2) /\
  (quiet (cl_ack c) b -> cl_ser c2 = cl_ser c).
Proof. exact client_notes. Qed.

Theorem C02_publish_session : forall c s app key t items k1 k2 k3 k4 k5 k6 k7 km ks1 ks2,
  Link (cl_ser c) (sv_de s) -> Link (sv_ser s) (cl_de c) -> ser_ok (cl_ser c) -> ser_ok (sv_ser s) ->
  cl_state c = Connected -> cl_next_tr c < 4294967296 -> sv_next_stream s < 4294967296 ->
  sv_connected s = true -> sv_app s = Some app -> utf8_valid key = true -> lenN key <= 65000 ->
  k1 < 4294967296 -> k2 < 4294967296 -> k3 < 4294967296 -> k5 < 4294967296 -> ks1 < 4294967296 ->
  (forall w, ack_window (sv_ack s) = Some w -> ack_since (sv_ack s) + 2 * (17 * (lenN key + 200) + 16) < w) ->
  (forall w, ack_window (cl_ack c) = Some w -> ack_since (cl_ack c) + 3 * (17 * (lenN key + 200) + 16) < w) ->
  Forall item_wf items ->
  exists c1 b1 s1 b2 c2 b3 s2 s3 b4 b5 c3 c4 c5 s4 c6 b6 s5 r,
    (* publish completes on both sides *)
    client_request_publishing c key t k1 = (c1, COk [CPacket b1 false]) /\
    server_handle_input s b1 k2 = (s1, ROk [SPacket b2 false]) /\
    client_handle_input c1 b2 k3 = (c2, COk [CPacket b3 false]) /\
    server_handle_input s1 b3 k4 = (s2, ROk [SEvent (EvPublishRequested (sv_next_req s) app key (mode_of_type t))]) /\
    server_accept s2 (sv_next_req s) k5 = (s3, ROk [SPacket b4 false; SPacket b5 false]) /\
    client_handle_input c2 b4 k6 = (c3, COk []) /\
    client_handle_input c3 b5 k7 = (c4, COk [CEvent CPublishAccepted]) /\
    (* every item is raised exactly once, in order, byte-exact, under the application name and the stream key *)
    publish_run c4 s3 items km =
      Some (c5, s4, map (fun i => match i with Item video data ts _ => media_event video app key data ts end) items) /\
    (* stopping raises the matching finished event *)
    client_stop_publishing c5 ks1 = (c6, COk [CPacket b6 false]) /\ cl_state c6 = Connected /\
    server_handle_input s4 b6 ks2 = (s5, ROk r) /\ events r = [EvPublishFinished app key].
Proof. exact publish_session. Qed.

Theorem C02_play_session : forall c s app key items k1 k2 k3 k4 k5 k6 t1 t2 t3 t4 t5 km kd ks1 ks2,
  Link (cl_ser c) (sv_de s) -> Link (sv_ser s) (cl_de c) -> ser_ok (cl_ser c) -> ser_ok (sv_ser s) ->
  cl_state c = Connected -> cl_next_tr c < 4294967296 -> sv_next_stream s < 4294967296 -> cc_buffer (cl_cfg c) < 4294967296 ->
  sv_connected s = true -> sv_app s = Some app -> utf8_valid key = true -> lenN key <= 65000 ->
  k1 < 4294967296 -> k2 < 4294967296 -> k3 < 4294967296 -> k6 < 4294967296 -> km < 4294967296 -> ks1 < 4294967296 ->
  (forall w, ack_window (sv_ack s) = Some w -> ack_since (sv_ack s) + 3 * (17 * (lenN key + 200) + 16) < w) ->
  (forall w, ack_window (cl_ack c) = Some w -> ack_since (cl_ack c) + 6 * (17 * (lenN key + 200) + 16) < w) ->
  Forall item_wf items ->
  exists c1 b1 s1 b2 c2 b3 b4 s2 s3 s4 p1 p2 p3 p4 p5 c3 c4 c5 c6 c7 s5 c8 out s6 c9 b9 s7 r,
    (* play completes on both sides *)
    client_request_playback c key k1 = (c1, COk [CPacket b1 false]) /\
    server_handle_input s b1 k2 = (s1, ROk [SPacket b2 false]) /\
    client_handle_input c1 b2 k3 = (c2, COk [CPacket b3 false; CPacket b4 false]) /\
    server_handle_input s1 b3 k4 = (s2, ROk []) /\
    server_handle_input s2 b4 k5 = (s3, ROk [SEvent (EvPlayRequested (sv_next_req s) app key LiveOrRecorded None false (sv_next_stream s))]) /\
    server_accept s3 (sv_next_req s) k6 = (s4, ROk [SPacket p1 false; SPacket p2 false; SPacket p3 false; SPacket p4 false; SPacket p5 false]) /\
    client_handle_input c2 p1 t1 = (c3, COk [CEvent (CUnhandleableStatus (str "NetStream.Play.Reset"))]) /\
    client_handle_input c3 p2 t2 = (c4, COk []) /\
    client_handle_input c4 p3 t3 = (c5, COk [CEvent CPlaybackAccepted]) /\
    client_handle_input c5 p4 t4 = (c6, COk []) /\
    client_handle_input c6 p5 t5 = (c7, COk []) /\
    (* every item the server sends is raised by the client exactly once, in order, byte-exact; `out` = what the client wrote meanwhile
       (Acknowledgements, whenever its counter reached the server's window) *)
    play_run2 s4 c7 (sv_next_stream s) items km =
      Some (s5, c8, map (fun i => match i with Item video data ts _ => cmedia_event video data ts end) items, out) /\
    (* the server reads those, then the stop: exactly the matching finished event *)
    sdeliver s5 out kd = Some s6 /\
    client_stop_playback c8 ks1 = (c9, COk [CPacket b9 false]) /\ cl_state c9 = Connected /\
    server_handle_input s6 b9 ks2 = (s7, ROk r) /\ events r = [EvPlayFinished app key].
Proof. exact play_session. Qed.

Theorem C02_play_media_phase : forall items,
forall s c sid clock,
  Link (sv_ser s) (cl_de c) -> ser_ok (cl_ser c) -> ser_ok (sv_ser s) -> playing_on c sid -> sid < 4294967296 -> clock < 4294967296 ->
  Forall item_wf items ->
  exists s' c' out,
    play_run2 s c sid items clock =
      Some (s', c', map (fun i => match i with Item video data ts _ => cmedia_event video data ts end) items, out) /\
    Link (sv_ser s') (cl_de c') /\ ser_ok (cl_ser c') /\ ser_ok (sv_ser s') /\ playing_on c' sid /\ cl_state c' = cl_state c /\
    sends (cl_ser c) out (cl_ser c') /\ same_core s s' /\ sv_de s' = sv_de s.
Proof. exact play_run_keeps. Qed.

Theorem C02_publish_media_phase : forall items,
forall c s clock sid app key,
  Link (cl_ser c) (sv_de s) -> ser_ok (cl_ser c) -> ser_ok (sv_ser s) -> publishing_stream c = Ok sid -> sid < 4294967296 ->
  sv_connected s = true -> publishing_key s sid = Some (app, key) -> Forall item_wf items ->
  exists c' s', publish_run c s items clock =
    Some (c', s', map (fun i => match i with Item video data ts _ => media_event video app key data ts end) items) /\
    Link (cl_ser c') (sv_de s') /\ ser_ok (cl_ser c') /\ ser_ok (sv_ser s') /\ publishing_stream c' = Ok sid /\
    sv_connected s' = true /\ publishing_key s' sid = Some (app, key).
Proof. exact publish_run_keeps. Qed.

Theorem C02_server_absorbs_control_packets : forall ser bs ser',
sends ser bs ser' -> forall s clock,
  Link ser (sv_de s) -> ser_ok (sv_ser s) ->
  exists s', sdeliver s bs clock = Some s' /\ same_core s s' /\ Link ser' (sv_de s') /\ ser_ok (sv_ser s').
Proof. exact server_absorbs. Qed.

Theorem C02_server_notes : forall ser ser' b s m ts sclock f,
  noted m -> Link ser (sv_de s) -> ser_ok (sv_ser s) -> ts < 4294967296 ->
  send_message ser m ts 0 f false = Ok (b, ser') ->
  exists s2 r, server_handle_input s b sclock = (s2, ROk r) /\ same_core s s2 /\ Link ser' (sv_de s2) /\ ser_ok (sv_ser s2).
Proof. exact server_notes. Qed.

Theorem C02_publish_session_all_items : forall c s app key t items k1 k2 k3 k4 k5 k6 k7 km ks1 ks2,
  Link (cl_ser c) (sv_de s) -> Link (sv_ser s) (cl_de c) -> ser_ok (cl_ser c) -> ser_ok (sv_ser s) ->
  cl_state c = Connected -> cl_next_tr c < 4294967296 -> sv_next_stream s < 4294967296 ->
  sv_connected s = true -> sv_app s = Some app -> utf8_valid key = true -> lenN key <= 65000 ->
  k1 < 4294967296 -> k2 < 4294967296 -> k3 < 4294967296 -> k5 < 4294967296 -> ks1 < 4294967296 ->
  (forall w, ack_window (sv_ack s) = Some w -> ack_since (sv_ack s) + 2 * (17 * (lenN key + 200) + 16) < w) ->
  (forall w, ack_window (cl_ack c) = Some w -> ack_since (cl_ack c) + 3 * (17 * (lenN key + 200) + 16) < w) ->
  Forall pitem_wf items ->
  exists c1 b1 s1 b2 c2 b3 s2 s3 b4 b5 c3 c4 c5 s4 c6 b6 s5 r,
    client_request_publishing c key t k1 = (c1, COk [CPacket b1 false]) /\
    server_handle_input s b1 k2 = (s1, ROk [SPacket b2 false]) /\
    client_handle_input c1 b2 k3 = (c2, COk [CPacket b3 false]) /\
    server_handle_input s1 b3 k4 = (s2, ROk [SEvent (EvPublishRequested (sv_next_req s) app key (mode_of_type t))]) /\
    server_accept s2 (sv_next_req s) k5 = (s3, ROk [SPacket b4 false; SPacket b5 false]) /\
    client_handle_input c2 b4 k6 = (c3, COk []) /\
    client_handle_input c3 b5 k7 = (c4, COk [CEvent CPublishAccepted]) /\
    publish_run3 c4 s3 items km = Some (c5, s4, map (pitem_event app key) items) /\
    client_stop_publishing c5 ks1 = (c6, COk [CPacket b6 false]) /\ cl_state c6 = Connected /\
    server_handle_input s4 b6 ks2 = (s5, ROk r) /\ events r = [EvPublishFinished app key].
Proof. exact publish_session_all_items. Qed.

Theorem C02_play_session_all_items : forall c s app key items k1 k2 k3 k4 k5 k6 t1 t2 t3 t4 t5 km kd ks1 ks2,
  Link (cl_ser c) (sv_de s) -> Link (sv_ser s) (cl_de c) -> ser_ok (cl_ser c) -> ser_ok (sv_ser s) ->
  cl_state c = Connected -> cl_next_tr c < 4294967296 -> sv_next_stream s < 4294967296 -> cc_buffer (cl_cfg c) < 4294967296 ->
  sv_connected s = true -> sv_app s = Some app -> utf8_valid key = true -> lenN key <= 65000 ->
  k1 < 4294967296 -> k2 < 4294967296 -> k3 < 4294967296 -> k6 < 4294967296 -> km < 4294967296 -> ks1 < 4294967296 ->
  (forall w, ack_window (sv_ack s) = Some w -> ack_since (sv_ack s) + 3 * (17 * (lenN key + 200) + 16) < w) ->
  (forall w, ack_window (cl_ack c) = Some w -> ack_since (cl_ack c) + 6 * (17 * (lenN key + 200) + 16) < w) ->
  Forall pitem_wf items ->
  exists c1 b1 s1 b2 c2 b3 b4 s2 s3 s4 p1 p2 p3 p4 p5 c3 c4 c5 c6 c7 s5 c8 out s6 c9 b9 s7 r,
    client_request_playback c key k1 = (c1, COk [CPacket b1 false]) /\
    server_handle_input s b1 k2 = (s1, ROk [SPacket b2 false]) /\
    client_handle_input c1 b2 k3 = (c2, COk [CPacket b3 false; CPacket b4 false]) /\
    server_handle_input s1 b3 k4 = (s2, ROk []) /\
    server_handle_input s2 b4 k5 = (s3, ROk [SEvent (EvPlayRequested (sv_next_req s) app key LiveOrRecorded None false (sv_next_stream s))]) /\
    server_accept s3 (sv_next_req s) k6 = (s4, ROk [SPacket p1 false; SPacket p2 false; SPacket p3 false; SPacket p4 false; SPacket p5 false]) /\
    client_handle_input c2 p1 t1 = (c3, COk [CEvent (CUnhandleableStatus (str "NetStream.Play.Reset"))]) /\
    client_handle_input c3 p2 t2 = (c4, COk []) /\
    client_handle_input c4 p3 t3 = (c5, COk [CEvent CPlaybackAccepted]) /\
    client_handle_input c5 p4 t4 = (c6, COk []) /\
    client_handle_input c6 p5 t5 = (c7, COk []) /\
    play_run3 s4 c7 (sv_next_stream s) items km = Some (s5, c8, map pitem_cevent items, out) /\
    sdeliver s5 out kd = Some s6 /\
    client_stop_playback c8 ks1 = (c9, COk [CPacket b9 false]) /\ cl_state c9 = Connected /\
    server_handle_input s6 b9 ks2 = (s7, ROk r) /\ events r = [EvPlayFinished app key].
Proof. exact play_session_all_items. Qed.

Theorem C02_publish_metadata_always_delivered : forall c s md clock sclock sid app key,
  Link (cl_ser c) (sv_de s) -> ser_ok (cl_ser c) -> ser_ok (sv_ser s) ->
  publishing_stream c = Ok sid -> sid < 4294967296 -> clock < 4294967296 -> md_ok md -> enc_ok md ->
  sv_connected s = true -> publishing_key s sid = Some (app, key) ->
  exists b c' s' rs,
    client_publish_metadata c md clock = (c', COk [CPacket b false]) /\
    server_handle_input s b sclock = (s', ROk rs) /\
    events rs = [EvMetadata app key md] /\
    Link (cl_ser c') (sv_de s') /\ ser_ok (cl_ser c') /\ ser_ok (sv_ser s') /\ publishing_stream c' = Ok sid /\
    sv_connected s' = true /\ publishing_key s' sid = Some (app, key).
Proof. exact publish_metadata_always_delivered. Qed.

Theorem C02_play_metadata_always_delivered : forall s c sid md clock cclock,
  Link (sv_ser s) (cl_de c) -> ser_ok (cl_ser c) -> ser_ok (sv_ser s) -> playing_on c sid -> sid < 4294967296 ->
  clock < 4294967296 -> cclock < 4294967296 -> md_ok md -> enc_ok md ->
  exists b ser' c' pre,
    server_send_metadata s sid md clock = (upd_ser s ser', ROk [SPacket b false]) /\
    client_handle_input c b cclock = (c', COk (pre ++ [CEvent (CMetadata md)])) /\ cevents pre = [] /\
    Link ser' (cl_de c') /\ ser_ok (cl_ser c') /\ ser_ok ser' /\ playing_on c' sid /\ cl_state c' = cl_state c /\
    sends (cl_ser c) (cpacket_list pre) (cl_ser c').
Proof. exact play_metadata_out. Qed.

Example C02_scenario_publish :
  filter is_media_or_lifecycle (server_events_of (ex_run ex_publish_ops)) =
  [ EvConnectionRequested 0 (str "live");
    EvPublishRequested 1 (str "live") (str "key") PLive;
    EvVideo (str "live") (str "key") [1; 2; 3; 4; 5] 10;
    EvAudio (str "live") (str "key") [] 4294967295;
    EvVideo (str "live") (str "key") [9] 0;
    EvPublishFinished (str "live") (str "key") ] /\
  filter (fun e => match e with CConnectionAccepted | CPublishAccepted => true | _ => false end)
         (client_events_of (ex_run ex_publish_ops)) = [CConnectionAccepted; CPublishAccepted].
Proof. exact scenario_publish. Qed.

Example C02_scenario_play :
  filter (fun e => match e with CVideo _ _ | CAudio _ _ | CPlaybackAccepted | CConnectionAccepted => true | _ => false end)
         (client_events_of (ex_run ex_play_ops)) =
  [ CConnectionAccepted; CPlaybackAccepted; CVideo 10 [1; 2; 3; 4; 5]; CAudio 16777215 [7; 7] ] /\
  filter (fun e => match e with EvPlayFinished _ _ => true | _ => false end) (server_events_of (ex_run ex_play_ops)) =
  [ EvPlayFinished (str "live") (str "key") ].
Proof. exact scenario_play. Qed.

Print Assumptions C02_link_preserved.
Print Assumptions C02_link_initially.
Print Assumptions C02_publish_sequence.
Print Assumptions C02_play_sequence.
Print Assumptions C02_publish_any_partition.
Print Assumptions C02_play_any_partition.
Print Assumptions C02_publish_metadata.
Print Assumptions C02_transport.
Print Assumptions C02_client_call_transport.
Print Assumptions C02_server_call_transport.
Print Assumptions C02_metadata_mapping_identity.
Print Assumptions C02_connect_request_delivered.
Print Assumptions C02_connect_accept_delivered.
Print Assumptions C02_connect_completes.
Print Assumptions C02_server_receives_message.
Print Assumptions C02_client_receives_message.
Print Assumptions C02_publish_completes.
Print Assumptions C02_play_completes.
Print Assumptions C02_stop_publishing_raises_finished.
Print Assumptions C02_stop_playback_raises_finished.
Print Assumptions C02_sessions_start.
Print Assumptions C02_connect_ready.
Print Assumptions C02_server_receives_chunk_size.
Print Assumptions C02_client_receives_chunk_size.
Print Assumptions C02_connect_completes_decided.
Print Assumptions C02_publish_session_all_items.
Print Assumptions C02_play_session_all_items.
Print Assumptions C02_publish_metadata_always_delivered.
Print Assumptions C02_play_metadata_always_delivered.
Print Assumptions C02_publish_session.
Print Assumptions C02_play_session.
Print Assumptions C02_play_media_phase.
Print Assumptions C02_publish_media_phase.
Print Assumptions C02_server_absorbs_control_packets.
Print Assumptions C02_server_notes.
Print Assumptions C02_publish_completes_windows.
Print Assumptions C02_play_completes_windows.
Print Assumptions C02_quiet_of_headroom.
Print Assumptions C02_quiet_when_headroom.
Print Assumptions C02_play_metadata.
Print Assumptions C02_metadata_mapping_identity_server.
Print Assumptions C02_server_packet_any_fragmentation.
Print Assumptions C02_client_packet_any_fragmentation.
Print Assumptions C02_server_notes_acknowledgement.
Print Assumptions C02_client_notes.
